(* Fault semantics of statement skeletons and the checker [surfaces].

   Every call of a function in package unix ("unix.X") is a system call that
   may fail.  A failing call sets the variable err it is assigned to (if any)
   and marks the path as [pending]: an I/O failure has happened.  The theorem
   says: if [surfaces body = true] then on every path through the body on which
   some system call failed, the body does not end normally and does not return
   without mentioning err — it panics or returns the error.  Conditions other
   than "err != nil" are treated as nondeterministic, loops run any number of
   times, so the statement covers every input and every fault sequence. *)
From Coq Require Import String List Bool.
From GV Require Import Base.Skel Base.Tables.
Import ListNotations.
Open Scope string_scope.

Definition is_syscall (c : string) : bool := prefix "unix." c.
Definition binds_err (asg : list string) : bool := mem_string "err" asg.
Definition err_check : string := "err != nil".

Record st := { err : bool; pending : bool }.
Inductive outcome := ONormal | OBreak | OPanic | OReturn (mentions_err : bool).

Definition after_ok (asg : list string) (s : st) : st :=
  if binds_err asg then {| err := false; pending := pending s |} else s.
Definition after_fail (asg : list string) (s : st) : st :=
  {| err := if binds_err asg then true else err s; pending := true |}.
Definition havoc_err (touched : bool) (b : bool) (s : st) : st :=
  if touched then {| err := b; pending := pending s |} else s.

Definition event := (string * list string * bool)%type.   (* callee, args, failed *)

Definition aborting (o : outcome) : Prop := o = OPanic \/ exists e, o = OReturn e.

Definition branch_of (c : string) (s : st) (thn els br : list sk) : Prop :=
  if String.eqb c err_check then br = (if err s then thn else els) else (br = thn \/ br = els).

Inductive exec : list sk -> st -> list event -> outcome -> st -> Prop :=
| E_nil s : exec [] s [] ONormal s
| E_sys_ok asg c args t s tr o s' :
    is_syscall c = true -> exec t (after_ok asg s) tr o s' ->
    exec (SCall asg c args :: t) s ((c, args, false) :: tr) o s'
| E_sys_fail asg c args t s tr o s' :
    is_syscall c = true -> exec t (after_fail asg s) tr o s' ->
    exec (SCall asg c args :: t) s ((c, args, true) :: tr) o s'
| E_panic asg args t s : exec (SCall asg "panic" args :: t) s [] OPanic s
| E_call asg c args t s b tr o s' :
    is_syscall c = false -> c <> "panic" ->
    exec t (havoc_err (binds_err asg) b s) tr o s' ->
    exec (SCall asg c args :: t) s tr o s'
| E_defer c args t s tr o s' : exec t s tr o s' -> exec (SDefer c args :: t) s tr o s'
| E_go c args t s tr o s' : exec t s tr o s' -> exec (SGo c args :: t) s tr o s'
| E_if_seq c thn els br t s tr1 s1 tr o s' :
    branch_of c s thn els br -> exec br s tr1 ONormal s1 -> exec t s1 tr o s' ->
    exec (SIf c thn els :: t) s (tr1 ++ tr) o s'
| E_if_stop c thn els br t s tr1 o s1 :
    branch_of c s thn els br -> exec br s tr1 o s1 -> o <> ONormal ->
    exec (SIf c thn els :: t) s tr1 o s1
| E_for_exit c b t s tr o s' : exec t s tr o s' -> exec (SFor c b :: t) s tr o s'
| E_for_iter c b t s tr1 s1 tr o s' :
    exec b s tr1 ONormal s1 -> exec (SFor c b :: t) s1 tr o s' ->
    exec (SFor c b :: t) s (tr1 ++ tr) o s'
| E_for_break c b t s tr1 s1 tr o s' :
    exec b s tr1 OBreak s1 -> exec t s1 tr o s' -> exec (SFor c b :: t) s (tr1 ++ tr) o s'
| E_for_abort c b t s tr1 o s1 :
    exec b s tr1 o s1 -> aborting o -> exec (SFor c b :: t) s tr1 o s1
| E_range_exit c b t s tr o s' : exec t s tr o s' -> exec (SRange c b :: t) s tr o s'
| E_range_iter c b t s tr1 s1 tr o s' :
    exec b s tr1 ONormal s1 -> exec (SRange c b :: t) s1 tr o s' ->
    exec (SRange c b :: t) s (tr1 ++ tr) o s'
| E_range_break c b t s tr1 s1 tr o s' :
    exec b s tr1 OBreak s1 -> exec t s1 tr o s' -> exec (SRange c b :: t) s (tr1 ++ tr) o s'
| E_range_abort c b t s tr1 o s1 :
    exec b s tr1 o s1 -> aborting o -> exec (SRange c b :: t) s tr1 o s1
| E_return vs t s : exec (SReturn vs :: t) s [] (OReturn (any_contains "err" vs)) s
| E_assign lhs rhs t s b tr o s' :
    exec t (havoc_err (binds_err lhs) b s) tr o s' -> exec (SAssign lhs rhs :: t) s tr o s'
| E_break t s : exec (SBreak :: t) s [] OBreak s
| E_other x t s tr o s' : exec t s tr o s' -> exec (SOther x :: t) s tr o s'.

(* a block that certainly reports the error: it starts by panicking or by
   returning a value list that mentions err *)
Definition aborts (ss : list sk) : bool :=
  match ss with
  | SCall _ c _ :: _ => String.eqb c "panic"
  | SReturn vs :: _ => any_contains "err" vs
  | _ => false
  end.

Definition is_nil {A} (l : list A) : bool := match l with [] => true | _ => false end.

Definition checks_err (s : sk) : bool :=
  match s with
  | SIf cond thn els => String.eqb cond err_check && aborts thn && is_nil els
  | _ => false
  end.

Definition stmt_is_syscall (s : sk) : bool :=
  match s with SCall _ c _ => is_syscall c | _ => false end.

(* every statement is fine and every system call is immediately followed by
   an "if err != nil" that panics or returns the error *)
Definition seq_ok (f : sk -> bool) : list sk -> bool :=
  fix go (l : list sk) : bool :=
  match l with
  | [] => true
  | s :: t =>
      f s &&
      (if stmt_is_syscall s then match t with n :: _ => checks_err n | [] => false end else true) &&
      go t
  end.

Fixpoint stmt_ok (s : sk) : bool :=
  match s with
  | SCall asg c _ =>
      if is_syscall c then binds_err asg
      else String.eqb c "panic" || negb (binds_err asg)
  | SIf _ thn els => seq_ok stmt_ok thn && seq_ok stmt_ok els
  | SFor _ b => seq_ok stmt_ok b
  | SRange _ b => seq_ok stmt_ok b
  | SAssign lhs _ => negb (binds_err lhs)
  | SOther _ => false
  | SDefer _ _ | SGo _ _ | SReturn _ | SBreak => true
  end.

Definition surfaces (ss : list sk) : bool := seq_ok stmt_ok ss.

Definition benign (o : outcome) : Prop := o = ONormal \/ o = OBreak \/ o = OReturn false.

(* some system call in the trace failed (exec_pending: that is when an error is pending) *)
Definition some_failed (tr : list event) : bool := existsb (fun e => snd e) tr.

(* What exec says of a body that starts with a call, a return or an if.  The
   cases are told apart by a match on the body, so that [destruct] on the
   execution proves it by computing the match: [inversion] would instead solve
   equations between bodies in every one of exec's rules, at every use. *)
Lemma exec_head_inv ss s tr o s' : exec ss s tr o s' ->
  match ss with
  | SCall asg c args :: t =>
      if is_syscall c then
        exists failed tr', tr = (c, args, failed) :: tr' /\
          exec t ((if failed then after_fail else after_ok) asg s) tr' o s'
      else if String.eqb c "panic" then tr = [] /\ o = OPanic /\ s' = s
      else exists b, exec t (havoc_err (binds_err asg) b s) tr o s'
  | SReturn vs :: _ => tr = [] /\ o = OReturn (any_contains "err" vs) /\ s' = s
  | SIf c thn els :: t =>
      exists br tr1 o1 s1, branch_of c s thn els br /\ exec br s tr1 o1 s1 /\
        ((o1 = ONormal /\ exists tr2, tr = (tr1 ++ tr2)%list /\ exec t s1 tr2 o s') \/
         (o1 <> ONormal /\ tr = tr1 /\ o = o1 /\ s' = s1))
  | _ => True
  end.
Proof.
  destruct 1 as
    [ | asg c args t s tr o s' Hsys He | asg c args t s tr o s' Hsys He | | asg c args t s b tr o s' Hns Hnp He | |
    | c thn els br t s tr1 s1 tr o s' Hbr He1 He2 | c thn els br t s tr1 o s1 Hbr He1 Hno
    | | | | | | | | | | | | ]; try exact I.
  - rewrite Hsys. exists false, tr. split; [reflexivity|exact He].
  - rewrite Hsys. exists true, tr. split; [reflexivity|exact He].
  - repeat split.
  - apply String.eqb_neq in Hnp. rewrite Hns, Hnp. exists b. exact He.
  - exists br, tr1, ONormal, s1. split; [exact Hbr|]. split; [exact He1|].
    left. split; [reflexivity|]. exists tr. split; [reflexivity|exact He2].
  - exists br, tr1, o, s1. split; [exact Hbr|]. split; [exact He1|].
    right. repeat split. exact Hno.
  - repeat split.
Qed.

(* a body whose first statement is the system call c(args) issues it on every path *)
Lemma first_syscall_issued asg c args t s tr o s' :
  is_syscall c = true -> exec (SCall asg c args :: t) s tr o s' ->
  exists failed tr', tr = (c, args, failed) :: tr'.
Proof.
  intros Hs He. apply exec_head_inv in He. rewrite Hs in He.
  destruct He as (failed & tr' & -> & _). eauto.
Qed.

Lemma aborts_exec b s tr o s' : aborts b = true -> exec b s tr o s' -> o = OPanic \/ o = OReturn true.
Proof.
  intros Ha He.
  destruct b as [|[asg c args| | | | | | vs | | |] t]; try discriminate Ha; cbn [aborts] in Ha.
  - apply String.eqb_eq in Ha as ->. apply exec_head_inv in He as (_ & -> & _). now left.
  - apply exec_head_inv in He as (_ & -> & _). right. now rewrite Ha.
Qed.

(* once err is set, an "if err != nil" that the checker takes for a check ends the body *)
Lemma check_catches {n t s tr o s'} : checks_err n = true -> err s = true ->
  exec (n :: t) s tr o s' -> o = OPanic \/ o = OReturn true.
Proof.
  intros Hc Herr He. destruct n as [| | |c thn els| | | | | |]; try discriminate Hc.
  cbn [checks_err] in Hc. apply andb_prop in Hc as [Hc _]. apply andb_prop in Hc as [Hc Hab].
  destruct (exec_head_inv _ _ _ _ _ He) as (br & tr1 & o1 & s1 & Hbr & He1 & Ho).
  unfold branch_of in Hbr. rewrite Hc, Herr in Hbr. subst br.
  pose proof (aborts_exec _ _ _ _ _ Hab He1) as Hr.
  destruct Ho as [(-> & _)|(_ & _ & -> & _)]; [|exact Hr].
  destruct Hr as [Hr|Hr]; discriminate Hr.
Qed.

Lemma seq_ok_cons f x t : seq_ok f (x :: t) = true ->
  f x = true /\
  (stmt_is_syscall x = true -> match t with n :: _ => checks_err n = true | [] => False end) /\
  seq_ok f t = true.
Proof.
  intros H. cbn [seq_ok] in H.
  apply andb_prop in H as [H H3]. apply andb_prop in H as [H1 H2].
  repeat split; auto. intros Hs. rewrite Hs in H2. destruct t; [discriminate|exact H2].
Qed.

Lemma branch_ok c s thn els br : branch_of c s thn els br ->
  stmt_ok (SIf c thn els) = true -> seq_ok stmt_ok br = true.
Proof.
  intros Hbr Hok. cbn [stmt_ok] in Hok. apply andb_prop in Hok as [Hthn Hels].
  unfold branch_of in Hbr. destruct (String.eqb c err_check).
  - subst br. destruct (err s); assumption.
  - destruct Hbr; subst br; assumption.
Qed.

Lemma some_failed_app a b : some_failed (a ++ b) = some_failed a || some_failed b.
Proof. apply existsb_app. Qed.

(* A body accepted by the checker that ends normally, breaks or returns without
   the error has seen no system call fail, whatever state it started in. *)
Theorem surfaces_sound ss s tr o s' : exec ss s tr o s' ->
  seq_ok stmt_ok ss = true -> benign o -> some_failed tr = false.
Proof.
  assert (Hn : benign ONormal) by now left.
  assert (Hbk : benign OBreak) by (right; now left).
  induction 1 as
    [ s
    | asg c args t s tr o s' Hsys He IH
    | asg c args t s tr o s' Hsys He IH
    | asg args t s
    | asg c args t s b tr o s' Hns Hnp He IH
    | c args t s tr o s' He IH
    | c args t s tr o s' He IH
    | c thn els br t s tr1 s1 tr o s' Hbr He1 IH1 He2 IH2
    | c thn els br t s tr1 o s1 Hbr He1 IH1 Hno
    | c b t s tr o s' He IH
    | c b t s tr1 s1 tr o s' He1 IH1 He2 IH2
    | c b t s tr1 s1 tr o s' He1 IH1 He2 IH2
    | c b t s tr1 o s1 He1 IH1 Hab
    | c b t s tr o s' He IH
    | c b t s tr1 s1 tr o s' He1 IH1 He2 IH2
    | c b t s tr1 s1 tr o s' He1 IH1 He2 IH2
    | c b t s tr1 o s1 He1 IH1 Hab
    | vs t s
    | lhs rhs t s b tr o s' He IH
    | t s
    | x t s tr o s' He IH ]; intros Hok Hb.
  (* The trace is empty; or that of the one part that ran, possibly behind a
     call that succeeded (IH, IH1); or it starts with a failed call; or it is
     that of two parts run one after the other. *)
  all: try reflexivity.
  all: pose proof (seq_ok_cons _ _ _ Hok) as (Hst & Hnext & Hrest).
  all: try apply (branch_ok _ _ _ _ _ Hbr) in Hst.
  all: try exact (IH Hrest Hb).
  all: try exact (IH1 Hst Hb).
  all: rewrite ?some_failed_app.
  - (* a failed call binds err and is followed by the check *)
    cbn [stmt_ok] in Hst. rewrite Hsys in Hst.
    destruct t as [|n t]; [destruct (Hnext Hsys)|].
    assert (Herr : err (after_fail asg s) = true) by (cbn [err after_fail]; now rewrite Hst).
    destruct (check_catches (Hnext Hsys) Herr He) as [->| ->];
      destruct Hb as [H|[H|H]]; discriminate H.
  - rewrite (IH1 Hst Hn). exact (IH2 Hrest Hb).
  - rewrite (IH1 Hst Hn). exact (IH2 Hok Hb).
  - rewrite (IH1 Hst Hbk). exact (IH2 Hrest Hb).
  - rewrite (IH1 Hst Hn). exact (IH2 Hok Hb).
  - rewrite (IH1 Hst Hbk). exact (IH2 Hrest Hb).
Qed.

Corollary failures_never_silent ss s tr o s' :
  surfaces ss = true -> exec ss s tr o s' ->
  some_failed tr = true -> o = OPanic \/ o = OReturn true.
Proof.
  intros Hs He Hf.
  assert (Hq : ~ benign o).
  { intros Hb. rewrite (surfaces_sound _ _ _ _ _ He Hs Hb) in Hf. discriminate Hf. }
  destruct o as [| | |[|]]; auto; destruct Hq; unfold benign; auto.
Qed.

Lemma exec_pending ss s tr o s' : exec ss s tr o s' -> pending s' = pending s || some_failed tr.
Proof.
  induction 1 as
    [ s
    | asg c args t s tr o s' Hsys He IH
    | asg c args t s tr o s' Hsys He IH
    | asg args t s
    | asg c args t s b tr o s' Hns Hnp He IH
    | c args t s tr o s' He IH
    | c args t s tr o s' He IH
    | c thn els br t s tr1 s1 tr o s' Hbr He1 IH1 He2 IH2
    | c thn els br t s tr1 o s1 Hbr He1 IH1 Hno
    | c b t s tr o s' He IH
    | c b t s tr1 s1 tr o s' He1 IH1 He2 IH2
    | c b t s tr1 s1 tr o s' He1 IH1 He2 IH2
    | c b t s tr1 o s1 He1 IH1 Hab
    | c b t s tr o s' He IH
    | c b t s tr1 s1 tr o s' He1 IH1 He2 IH2
    | c b t s tr1 s1 tr o s' He1 IH1 He2 IH2
    | c b t s tr1 o s1 He1 IH1 Hab
    | vs t s
    | lhs rhs t s b tr o s' He IH
    | t s
    | x t s tr o s' He IH ].
  all: try (symmetry; apply orb_false_r).
  all: try exact IH.
  all: try exact IH1.
  all: try (rewrite some_failed_app, orb_assoc, <- IH1; exact IH2).
  all: rewrite IH.
  - unfold after_ok. destruct (binds_err asg); reflexivity.
  - symmetry. apply orb_true_r.
  - unfold havoc_err. destruct (binds_err asg); reflexivity.
  - unfold havoc_err. destruct (binds_err lhs); reflexivity.
Qed.
