From Coq Require Import List ZArith Lia Bool.
From GV Require Import Disk.Disk.
Import ListNotations.
Open Scope Z_scope.

(* ---------------------------------------------------------------- list facts *)
Lemma set_nth_length {A} (l : list A) i x : length (set_nth l i x) = length l.
Proof. revert i; induction l as [|h t IH]; intros [|i]; simpl; auto. Qed.

Lemma nth_set_nth_eq {A} (l : list A) i x d : (i < length l)%nat -> nth i (set_nth l i x) d = x.
Proof. revert i; induction l as [|h t IH]; intros [|i] H; simpl in *; try lia; auto. apply IH; lia. Qed.

Lemma nth_set_nth_neq {A} (l : list A) i j x d : i <> j -> nth j (set_nth l i x) d = nth j l d.
Proof. revert i j; induction l as [|h t IH]; intros [|i] [|j] H; simpl; auto; try congruence. Qed.

Lemma Forall_set_nth {A} (P : A -> Prop) l i x : Forall P l -> P x -> Forall P (set_nth l i x).
Proof.
  intros H Hx. revert i. induction H as [|h t Hh Ht IH]; intros [|i]; simpl; constructor; auto.
Qed.

Lemma nth_firstn {A} (l : list A) n i d : (i < n)%nat -> nth i (firstn n l) d = nth i l d.
Proof. revert l i; induction n as [|n IH]; intros [|x l] [|i] H; simpl; try lia; auto. apply IH; lia. Qed.

Lemma nth_skipn {A} (l : list A) n i d : nth i (skipn n l) d = nth (n + i) l d.
Proof. revert l; induction n as [|n IH]; intros [|x l]; simpl; auto. now destruct i. Qed.

Lemma copy_into_same_length dst src : length dst = length src -> copy_into dst src = src.
Proof.
  intros H. unfold copy_into. rewrite H, firstn_all, skipn_all2 by lia. apply app_nil_r.
Qed.

Lemma copy_into_length dst src : length (copy_into dst src) = length dst.
Proof.
  unfold copy_into. rewrite app_length, firstn_length, skipn_length. lia.
Qed.

Lemma zeros_length k : length (zeros k) = k.
Proof. apply repeat_length. Qed.

(* ---------------------------------------------------------------- running histories *)
Section Run.
  Context {S : Type} (step : S -> op -> S * out).

  Lemma fst_run_cons s o h : fst (run step s (o :: h)) = fst (run step (fst (step s o)) h).
  Proof. cbn [run]. destruct (step s o) as [s' r]. cbn [fst]. now destruct (run step s' h). Qed.

  Lemma outs_cons s o h : outs step s (o :: h) = snd (step s o) :: outs step (fst (step s o)) h.
  Proof. unfold outs. cbn [run]. destruct (step s o) as [s' r]. cbn [fst snd]. now destruct (run step s' h). Qed.

  Lemma outs_app h1 h2 : forall s,
    outs step s (h1 ++ h2) = outs step s h1 ++ outs step (fst (run step s h1)) h2.
  Proof.
    induction h1 as [|o h1 IH]; intros s; [reflexivity|].
    cbn [app]. now rewrite !outs_cons, fst_run_cons, IH.
  Qed.
End Run.

(* ---------------------------------------------------------------- generic simulation *)
Section Sim.
  Context {S1 S2 : Type} (step1 : S1 -> op -> S1 * out) (step2 : S2 -> op -> S2 * out).
  Variable R : S1 -> S2 -> Prop.
  Variable ok : op -> Prop.
  Hypothesis sim : forall s1 s2 o, R s1 s2 -> ok o ->
    snd (step1 s1 o) = snd (step2 s2 o) /\ R (fst (step1 s1 o)) (fst (step2 s2 o)).

  Lemma sim_run : forall h s1 s2, R s1 s2 -> Forall ok h ->
    outs step1 s1 h = outs step2 s2 h /\ R (fst (run step1 s1 h)) (fst (run step2 s2 h)).
  Proof.
    induction h as [|o h IH]; intros s1 s2 HR Hok; [now split|].
    inversion Hok as [|? ? Ho Hh]; subst.
    destruct (sim s1 s2 o HR Ho) as [E HR'].
    rewrite !outs_cons, !fst_run_cons, E.
    destruct (IH _ _ HR' Hh) as [-> IH']. now split.
  Qed.
End Sim.

Section WithBlockSize.
Variable bs : nat.

Notation regs_step := (regs_step bs).
Notation mem_step := (mem_step bs).
Notation file_step := (file_step bs).

(* addresses are uint64 values *)
Definition addr_ok (o : op) : Prop :=
  match o with ORead a | OReadTo a _ | OWrite a _ => 0 <= a | _ => True end.
(* ... and ReadTo is given a block-sized buffer (its documented use) *)
Definition op_ok (o : op) : Prop :=
  addr_ok o /\ match o with OReadTo _ buf => length buf = bs | _ => True end.

(* The specification tests 0 <= a < n; the implementations, whose addresses
   are unsigned, only test n <= a. *)
Lemma in_range_leb n a : 0 <= a -> in_range n a = negb (n <=? a).
Proof.
  intros H. unfold in_range. now rewrite (proj2 (Z.leb_le 0 a) H), Z.ltb_antisym.
Qed.

(* Read is ReadTo into a fresh block of zeros, in the code and in each model,
   so Read reduces to ReadTo in each theorem below. *)
Lemma regs_read_readto s a : regs_step s (ORead a) = regs_step s (OReadTo a (zeros bs)).
Proof. cbn [Disk.regs_step]. rewrite zeros_length, Nat.eqb_refl. reflexivity. Qed.

Lemma mem_read_readto m a : mem_step m (ORead a) = mem_step m (OReadTo a (zeros bs)).
Proof. reflexivity. Qed.

Lemma file_read_readto d a : file_step d (ORead a) = file_step d (OReadTo a (zeros bs)).
Proof. cbn [Disk.file_step]. rewrite zeros_length, Nat.eqb_refl. reflexivity. Qed.

(* ---------------------------------------------------------------- MemDisk refines the registers *)
Definition Rmem (m : mem) (s : regs) : Prop :=
  size s = mem_len m /\ Forall (fun b => length b = bs) m /\
  forall a, 0 <= a < size s -> nth (Z.to_nat a) m [] = reg s a.

Lemma Rmem_init n : 0 <= n -> Rmem (mem_init bs n) (regs_init bs n).
Proof.
  intros Hn. unfold Rmem, mem_init, regs_init, mem_len; cbn [size reg].
  assert (Hall : Forall (fun b => length b = bs) (repeat (zeros bs) (Z.to_nat n))).
  { apply Forall_forall. intros b Hb. apply repeat_spec in Hb. subst. apply zeros_length. }
  rewrite repeat_length. repeat split; [lia|exact Hall|].
  intros a Ha. eapply repeat_spec, nth_In. rewrite repeat_length. lia.
Qed.

Lemma Rmem_block m s a : Rmem m s -> 0 <= a < size s ->
  nth (Z.to_nat a) m [] = reg s a /\ length (reg s a) = bs /\ (Z.to_nat a < length m)%nat.
Proof.
  intros (Hsz & Hall & Hnth) Ha. unfold mem_len in Hsz.
  assert (Hlt : (Z.to_nat a < length m)%nat) by lia.
  rewrite <- (Hnth a Ha). repeat split; [|exact Hlt].
  now apply (proj1 (Forall_nth _ m) Hall).
Qed.

Lemma mem_sim m s o : Rmem m s -> op_ok o ->
  snd (mem_step m o) = snd (regs_step s o) /\ Rmem (fst (mem_step m o)) (fst (regs_step s o)).
Proof.
  intros HR (Ha & Hbuf). pose proof HR as (Hsz & Hall & Hnth).
  assert (Hreadto : forall a buf, 0 <= a -> length buf = bs ->
            snd (mem_step m (OReadTo a buf)) = snd (regs_step s (OReadTo a buf)) /\
            Rmem (fst (mem_step m (OReadTo a buf))) (fst (regs_step s (OReadTo a buf)))).
  { clear o Ha Hbuf. intros a buf Ha Hbuf. cbn [Disk.mem_step Disk.regs_step].
    rewrite Hbuf, Nat.eqb_refl, in_range_leb, <- Hsz by exact Ha. cbn [negb].
    destruct (Z.leb_spec (size s) a) as [Hge|Hlt]; cbn [negb fst snd]; [now split|].
    destruct (Rmem_block m s a HR ltac:(lia)) as (Hn & Hl & _).
    rewrite Hn, copy_into_same_length by congruence. now split. }
  destruct o as [a|a buf|a v| |]; cbn [addr_ok] in Ha.
  - rewrite mem_read_readto, regs_read_readto. apply Hreadto; [exact Ha|apply zeros_length].
  - now apply Hreadto.
  - cbn [Disk.mem_step Disk.regs_step].
    destruct (Nat.eqb_spec (length v) bs) as [Hv|Hv]; cbn [negb]; [|now split].
    rewrite in_range_leb, <- Hsz by exact Ha.
    destruct (Z.leb_spec (size s) a) as [Hge|Hlt]; cbn [negb fst snd]; [now split|].
    destruct (Rmem_block m s a HR ltac:(lia)) as (Hn & Hl & Hlen).
    rewrite Hn, copy_into_same_length by congruence. split; [reflexivity|].
    unfold Rmem, mem_len; cbn [size reg]. rewrite set_nth_length.
    repeat split; [exact Hsz|apply Forall_set_nth; assumption|].
    intros a' Ha'. destruct (Z.eqb_spec a' a) as [->|Hne].
    + now apply nth_set_nth_eq.
    + rewrite nth_set_nth_neq by lia. apply Hnth. lia.
  - cbn [Disk.mem_step Disk.regs_step fst snd]. rewrite Hsz. now split.
  - now split.
Qed.

Theorem mem_refines n h : 0 <= n -> Forall op_ok h ->
  outs mem_step (mem_init bs n) h = outs regs_step (regs_init bs n) h.
Proof. intros Hn. apply (sim_run mem_step regs_step Rmem op_ok mem_sim), Rmem_init, Hn. Qed.

(* ---------------------------------------------------------------- FileDisk refines the registers *)
(* the block at index i of a flat file *)
Definition blk_at (f : list Z) (i : nat) : block := firstn bs (skipn (i * bs) f).

(* A block is a window of the file, and is determined by the bytes in it.
   What pwrite (here), ftruncate (Reopen.v) or an all-zero file do to a block
   is read off from what they do to single bytes. *)
Lemma blk_at_ext f i b : length b = bs -> (i * bs + bs <= length f)%nat ->
  (forall j, (j < bs)%nat -> nth (i * bs + j) f 0 = nth j b 0) -> blk_at f i = b.
Proof.
  intros Hb Hf H. unfold blk_at.
  apply (nth_ext _ _ 0 0); rewrite firstn_length, skipn_length; [lia|].
  intros j Hj. rewrite nth_firstn, nth_skipn by lia. apply H. lia.
Qed.

Lemma nth_blk_at f i j : (j < bs)%nat -> nth j (blk_at f i) 0 = nth (i * bs + j) f 0.
Proof. intros H. unfold blk_at. now rewrite nth_firstn, nth_skipn. Qed.

Lemma blk_at_length f i : (i * bs + bs <= length f)%nat -> length (blk_at f i) = bs.
Proof. intros H. unfold blk_at. rewrite firstn_length, skipn_length. lia. Qed.

Lemma mul_lt_step (i j : nat) : (i < j)%nat -> (i * bs + bs <= j * bs)%nat.
Proof. intros H. rewrite Nat.add_comm. exact (Nat.mul_le_mono_r (S i) j bs H). Qed.

Lemma blocks_disjoint i j k : i <> j -> (k < bs)%nat ->
  (j * bs + k < i * bs \/ i * bs + bs <= j * bs + k)%nat.
Proof.
  intros Hne Hk. destruct (Nat.lt_ge_cases j i) as [H|H].
  - left. pose proof (mul_lt_step j i H). lia.
  - right. pose proof (mul_lt_step i j ltac:(lia)). lia.
Qed.

Lemma pread_full f off buf : length buf = bs -> (off + bs <= length f)%nat ->
  pread f off buf = firstn bs (skipn off f).
Proof.
  intros Hb Hf. unfold pread. rewrite Hb. apply copy_into_same_length.
  rewrite firstn_length, skipn_length. lia.
Qed.

Lemma pwrite_inside f off v : (off + length v <= length f)%nat ->
  pwrite f off v = firstn off f ++ v ++ skipn (off + length v) f.
Proof.
  intros H. unfold pwrite. replace (off - length f)%nat with 0%nat by lia.
  cbn [repeat]. now rewrite app_nil_r.
Qed.

Lemma pwrite_length f off v : (off + length v <= length f)%nat ->
  length (pwrite f off v) = length f.
Proof.
  intros H. rewrite pwrite_inside by exact H.
  rewrite !app_length, firstn_length, skipn_length. lia.
Qed.

Lemma nth_pwrite_in f off v k : (off + length v <= length f)%nat -> (k < length v)%nat ->
  nth (off + k) (pwrite f off v) 0 = nth k v 0.
Proof.
  intros H Hk. rewrite pwrite_inside by exact H.
  rewrite app_nth2; rewrite firstn_length, Nat.min_l by lia; [|lia].
  rewrite app_nth1 by lia. f_equal. lia.
Qed.

Lemma nth_pwrite_out f off v k : (off + length v <= length f)%nat ->
  (k < off \/ off + length v <= k)%nat -> nth k (pwrite f off v) 0 = nth k f 0.
Proof.
  intros H Hk. rewrite pwrite_inside by exact H.
  assert (Hl : length (firstn off f) = off) by (rewrite firstn_length; lia).
  destruct Hk as [Hk|Hk].
  - rewrite app_nth1 by lia. apply nth_firstn, Hk.
  - rewrite app_nth2, app_nth2, nth_skipn by lia. f_equal. lia.
Qed.

Lemma blk_at_pwrite_same f i v : length v = bs -> (i * bs + bs <= length f)%nat ->
  blk_at (pwrite f (i * bs) v) i = v.
Proof.
  intros Hv Hf. apply blk_at_ext; [exact Hv|rewrite pwrite_length; lia|].
  intros j Hj. apply nth_pwrite_in; lia.
Qed.

Lemma blk_at_pwrite_other f i j v : length v = bs -> (i * bs + bs <= length f)%nat ->
  (j * bs + bs <= length f)%nat -> i <> j ->
  blk_at (pwrite f (i * bs) v) j = blk_at f j.
Proof.
  intros Hv Hi Hj Hne.
  apply blk_at_ext; [now apply blk_at_length|rewrite pwrite_length; lia|].
  intros k Hk. rewrite nth_blk_at by exact Hk. apply nth_pwrite_out; [lia|].
  rewrite Hv. now apply blocks_disjoint.
Qed.

Lemma blk_at_zero n i : (i < n)%nat -> blk_at (repeat 0 (n * bs)) i = zeros bs.
Proof.
  intros Hi. pose proof (mul_lt_step i n Hi).
  apply blk_at_ext; [apply zeros_length|now rewrite repeat_length|].
  intros j _. unfold zeros. now rewrite !nth_repeat.
Qed.

Definition Rfile (d : fdisk) (s : regs) : Prop :=
  nblocks d = size s /\ 0 <= size s /\ size s * Z.of_nat bs < 2 ^ 64 /\
  length (file d) = (Z.to_nat (size s) * bs)%nat /\
  forall a, 0 <= a < size s -> blk_at (file d) (Z.to_nat a) = reg s a.

Lemma Rfile_init n : 0 <= n -> n * Z.of_nat bs < 2 ^ 64 -> Rfile (file_init bs n) (regs_init bs n).
Proof.
  intros Hn Hw. unfold Rfile, file_init, regs_init; cbn [nblocks file size reg].
  repeat split; try assumption.
  - apply repeat_length.
  - intros a Ha. apply blk_at_zero. lia.
Qed.

Lemma offset_of_small n a : 0 <= a < n -> n * Z.of_nat bs < 2 ^ 64 ->
  Z.to_nat (offset_of bs a) = (Z.to_nat a * bs)%nat.
Proof.
  intros Ha Hn. unfold offset_of.
  assert (a * Z.of_nat bs <= n * Z.of_nat bs) by (apply Z.mul_le_mono_nonneg_r; lia).
  rewrite Z.mod_small by lia.
  rewrite Z2Nat.inj_mul by lia. now rewrite Nat2Z.id.
Qed.

Lemma Rfile_block d s a : Rfile d s -> 0 <= a < size s ->
  Z.to_nat (offset_of bs a) = (Z.to_nat a * bs)%nat /\
  (Z.to_nat a * bs + bs <= length (file d))%nat /\
  blk_at (file d) (Z.to_nat a) = reg s a.
Proof.
  intros (_ & _ & Hwrap & Hlen & Hblk) Ha.
  split; [now apply (offset_of_small (size s))|]. split; [|now apply Hblk].
  rewrite Hlen. apply mul_lt_step. lia.
Qed.

Lemma file_sim d s o : Rfile d s -> addr_ok o ->
  snd (file_step d o) = snd (regs_step s o) /\ Rfile (fst (file_step d o)) (fst (regs_step s o)).
Proof.
  intros HR Ha. pose proof HR as (Hnb & Hrest).
  assert (Hreadto : forall a buf, 0 <= a ->
            snd (file_step d (OReadTo a buf)) = snd (regs_step s (OReadTo a buf)) /\
            Rfile (fst (file_step d (OReadTo a buf))) (fst (regs_step s (OReadTo a buf)))).
  { clear o Ha. intros a buf Ha. cbn [Disk.file_step Disk.regs_step].
    destruct (Nat.eqb_spec (length buf) bs) as [Hb|Hb]; cbn [negb]; [|now split].
    rewrite in_range_leb, Hnb by exact Ha.
    destruct (Z.leb_spec (size s) a) as [Hge|Hlt]; cbn [negb fst snd]; [now split|].
    destruct (Rfile_block d s a HR ltac:(lia)) as (-> & Hin & <-).
    rewrite pread_full by assumption. now split. }
  destruct o as [a|a buf|a v| |]; cbn [addr_ok] in Ha.
  - rewrite file_read_readto, regs_read_readto. now apply Hreadto.
  - now apply Hreadto.
  - cbn [Disk.file_step Disk.regs_step].
    destruct (Nat.eqb_spec (length v) bs) as [Hv|Hv]; cbn [negb]; [|now split].
    rewrite in_range_leb, Hnb by exact Ha.
    destruct (Z.leb_spec (size s) a) as [Hge|Hlt]; cbn [negb fst snd]; [now split|].
    destruct (Rfile_block d s a HR ltac:(lia)) as (-> & Hin & _).
    split; [reflexivity|]. destruct Hrest as (Hn0 & Hwrap & Hlen & Hblk).
    unfold Rfile; cbn [nblocks file size reg].
    repeat split; try assumption; [rewrite pwrite_length; lia|].
    intros a' Ha'. destruct (Z.eqb_spec a' a) as [->|Hne].
    + now apply blk_at_pwrite_same.
    + destruct (Rfile_block d s a' HR Ha') as (_ & Hin' & <-).
      apply blk_at_pwrite_other; try assumption.
      intros E. apply Hne, Z2Nat.inj; [apply Ha'|exact Ha|now symmetry].
  - cbn [Disk.file_step Disk.regs_step fst snd]. rewrite Hnb. now split.
  - now split.
Qed.

Lemma file_run d s h : Rfile d s -> Forall addr_ok h ->
  outs file_step d h = outs regs_step s h /\
  Rfile (fst (run file_step d h)) (fst (run regs_step s h)).
Proof. apply (sim_run file_step regs_step Rfile addr_ok file_sim). Qed.

Theorem file_refines n h : 0 <= n -> n * Z.of_nat bs < 2 ^ 64 -> Forall addr_ok h ->
  outs file_step (file_init bs n) h = outs regs_step (regs_init bs n) h.
Proof. intros Hn Hw. now apply file_run, Rfile_init. Qed.

Corollary mem_file_equal n h : 0 <= n -> n * Z.of_nat bs < 2 ^ 64 -> Forall op_ok h ->
  outs mem_step (mem_init bs n) h = outs file_step (file_init bs n) h.
Proof.
  intros Hn Hw Hh. rewrite mem_refines, file_refines; auto.
  eapply Forall_impl; [|exact Hh]. now intros o [H _].
Qed.

(* ---------------------------------------------------------------- the specification, over histories *)
(* accepted write: in range and block-sized *)
Definition accepted (n : Z) (o : op) : bool :=
  match o with
  | OWrite a v => Nat.eqb (length v) bs && in_range n a
  | _ => false
  end.

(* value of register a after history h, starting from value cur:
   the last accepted write to a, if any *)
Fixpoint last_write (n : Z) (h : list op) (a : Z) (cur : block) : block :=
  match h with
  | [] => cur
  | OWrite a' v :: h' =>
      if accepted n (OWrite a' v) && Z.eqb a' a then last_write n h' a v else last_write n h' a cur
  | _ :: h' => last_write n h' a cur
  end.

Lemma regs_step_size s o : size (fst (regs_step s o)) = size s.
Proof.
  destruct o as [a|a buf|a v| |]; cbn [regs_step];
    repeat match goal with |- context [if ?c then _ else _] => destruct c end; reflexivity.
Qed.

Lemma regs_run_size h : forall s, size (fst (run regs_step s h)) = size s.
Proof.
  induction h as [|o h IH]; intros s; [reflexivity|].
  rewrite fst_run_cons, IH. apply regs_step_size.
Qed.

Lemma regs_run_reg h : forall s a,
  reg (fst (run regs_step s h)) a = last_write (size s) h a (reg s a).
Proof.
  induction h as [|o h IH]; intros s a; [reflexivity|].
  rewrite fst_run_cons, IH, regs_step_size.
  destruct o as [b|b buf|b v| |]; cbn [regs_step last_write accepted].
  (* only a write may change the state *)
  1,2,4,5: repeat match goal with |- context [if ?c then _ else _] => destruct c end; reflexivity.
  destruct (Nat.eqb (length v) bs); cbn [negb andb]; [|reflexivity].
  destruct (in_range (size s) b); cbn [andb fst reg]; [|reflexivity].
  rewrite (Z.eqb_sym a b). now destruct (Z.eqb b a).
Qed.

(* every read returns the most recent value written to that address (what the
   register held before, if none), out-of-range reads are refused: whatever
   the history before it, from whatever state *)
Theorem regs_readto_spec s h a buf : length buf = bs ->
  outs regs_step s (h ++ [OReadTo a buf]) =
  outs regs_step s h ++
  [if in_range (size s) a then RBlock (last_write (size s) h a (reg s a)) else RRefused].
Proof.
  intros Hb. rewrite outs_app, outs_cons. cbn [regs_step].
  rewrite Hb, Nat.eqb_refl, regs_run_size, regs_run_reg. cbn [negb].
  now destruct (in_range (size s) a).
Qed.

Theorem regs_read_spec s h a :
  outs regs_step s (h ++ [ORead a]) =
  outs regs_step s h ++
  [if in_range (size s) a then RBlock (last_write (size s) h a (reg s a)) else RRefused].
Proof.
  rewrite <- (regs_readto_spec s h a (zeros bs)) by apply zeros_length.
  now rewrite !outs_app, !outs_cons, regs_read_readto.
Qed.

(* a write is refused exactly when the address is out of range or the buffer
   is not block-sized, and then nothing changes *)
Theorem regs_write_refused_iff s a v :
  snd (regs_step s (OWrite a v)) = RRefused <-> (length v <> bs \/ in_range (size s) a = false).
Proof.
  cbn [regs_step]. destruct (Nat.eqb_spec (length v) bs) as [E|E]; cbn [negb].
  - destruct (in_range (size s) a); cbn [snd]; split; intros H; try discriminate; auto.
    destruct H as [H|H]; [contradiction|discriminate].
  - cbn [snd]. split; auto.
Qed.

Theorem regs_refused_unchanged s o : snd (regs_step s o) = RRefused -> fst (regs_step s o) = s.
Proof.
  destruct o as [a|a buf|a v| |]; cbn [regs_step];
    repeat match goal with |- context [if ?c then _ else _] => destruct c end; cbn [fst snd];
    intros H; try discriminate; reflexivity.
Qed.

(* a write to a changes no other register *)
Theorem last_write_other n a a' v h cur : a' <> a ->
  last_write n (OWrite a' v :: h) a cur = last_write n h a cur.
Proof.
  intros Hne. cbn [last_write]. destruct (Z.eqb_spec a' a); [contradiction|].
  now rewrite andb_false_r.
Qed.

(* the contents of the buffer handed to ReadTo are irrelevant (only its length) *)
Theorem regs_readto_buffer_irrelevant s a buf buf' : length buf = length buf' ->
  regs_step s (OReadTo a buf) = regs_step s (OReadTo a buf').
Proof. intros H. cbn [regs_step]. now rewrite H. Qed.

End WithBlockSize.
