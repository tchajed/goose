(* NewFileDisk on an existing (or absent) image, Close, and reopening.
   Mirror of machine/disk/file.go NewFileDisk:

     fd := open(path, O_RDWR|O_CREAT)            absent -> empty file
     fstat(fd)
     if regular && uint64(stat.Size) != numBlocks*BlockSize {
         ftruncate(fd, int64(numBlocks*BlockSize)) }      (uint64 product wraps)

   Close only releases the descriptor: the image (the model's [file]) stays. *)
From Coq Require Import List ZArith Lia.
From GV Require Import Disk.Disk Disk.DiskProofs.
Import ListNotations.
Open Scope Z_scope.

Section WithBlockSize.
Variable bs : nat.

(* ftruncate(fd, k): cut, or extend with zero bytes *)
Definition ftruncate (f : list Z) (k : nat) : list Z := firstn k f ++ repeat 0 (k - length f).

(* None: NewFileDisk returned an error (ftruncate with a negative length) *)
Definition open_disk (n : Z) (prev : option (list Z)) : option fdisk :=
  let f := match prev with None => [] | Some f => f end in
  let want := (n * Z.of_nat bs) mod 2 ^ 64 in
  if Z.of_nat (length f) =? want then Some {| nblocks := n; file := f |}
  else if 2 ^ 63 <=? want then None
  else Some {| nblocks := n; file := ftruncate f (Z.to_nat want) |}.

Definition close_disk (d : fdisk) : list Z := file d.

Lemma ftruncate_length f k : length (ftruncate f k) = k.
Proof. unfold ftruncate. rewrite app_length, firstn_length, repeat_length. lia. Qed.

(* byte by byte: what is kept is kept, the rest reads zero *)
Lemma nth_ftruncate f k i : (i < k)%nat -> nth i (ftruncate f k) 0 = nth i f 0.
Proof.
  intros Hi. unfold ftruncate. destruct (Nat.lt_ge_cases i (length f)) as [H|H].
  - rewrite app_nth1 by (rewrite firstn_length; lia). now apply nth_firstn.
  - rewrite app_nth2; rewrite firstn_length, Nat.min_r by lia; [|exact H].
    now rewrite nth_repeat, nth_overflow.
Qed.

Lemma nth_ftruncate_new f k i : (length f <= i)%nat -> nth i (ftruncate f k) 0 = 0.
Proof.
  intros Hi. destruct (Nat.lt_ge_cases i k) as [H|H].
  - rewrite nth_ftruncate by exact H. now apply nth_overflow.
  - apply nth_overflow. now rewrite ftruncate_length.
Qed.

(* The byte length NewFileDisk asks for does not wrap and is a valid off_t, so
   the image is brought to that length; an image that has it already is left
   alone, which is the same. *)
Lemma open_disk_eq n prev : 0 <= n -> n * Z.of_nat bs < 2 ^ 63 ->
  open_disk n prev =
  Some {| nblocks := n;
          file := ftruncate (match prev with None => [] | Some f => f end) (Z.to_nat n * bs) |}.
Proof.
  intros Hn Hw. unfold open_disk.
  set (f := match prev with None => [] | Some f => f end).
  replace (n * Z.of_nat bs) with (Z.of_nat (Z.to_nat n * bs)) in *
    by now rewrite Nat2Z.inj_mul, Z2Nat.id.
  rewrite Z.mod_small
    by (split; [apply Nat2Z.is_nonneg|eapply Z.lt_trans; [exact Hw|reflexivity]]).
  rewrite (proj2 (Z.leb_gt _ _) Hw), Nat2Z.id.
  destruct (Z.eqb_spec (Z.of_nat (length f)) (Z.of_nat (Z.to_nat n * bs))) as [E|E]; [|reflexivity].
  apply Nat2Z.inj in E. rewrite <- E. unfold ftruncate.
  now rewrite firstn_all, Nat.sub_diag, app_nil_r.
Qed.

Lemma open_disk_succeeds n prev : 0 <= n -> n * Z.of_nat bs < 2 ^ 63 -> exists d, open_disk n prev = Some d.
Proof. intros Hn Hw. eexists. now apply open_disk_eq. Qed.

(* exactly the requested size; retained bytes preserved; new bytes zero *)
Theorem open_disk_spec n prev d : 0 <= n -> n * Z.of_nat bs < 2 ^ 63 ->
  open_disk n prev = Some d ->
  let f := match prev with None => [] | Some f => f end in
  nblocks d = n /\ length (file d) = (Z.to_nat n * bs)%nat /\
  (forall i, (i < length f)%nat -> (i < Z.to_nat n * bs)%nat -> nth i (file d) 0 = nth i f 0) /\
  (forall i, (length f <= i)%nat -> nth i (file d) 0 = 0).
Proof.
  intros Hn Hw Ho f. rewrite open_disk_eq in Ho by assumption. injection Ho as <-.
  cbn [nblocks file]. fold f. repeat split.
  - apply ftruncate_length.
  - intros i _. apply nth_ftruncate.
  - apply nth_ftruncate_new.
Qed.

(* block view: complete blocks of the old image are kept, blocks beyond it read zero *)
Lemma blk_at_ftruncate_keep f k a : (a * bs + bs <= length f)%nat -> (a * bs + bs <= k)%nat ->
  blk_at bs (ftruncate f k) a = blk_at bs f a.
Proof.
  intros Hf Hk. apply blk_at_ext; [now apply blk_at_length|now rewrite ftruncate_length|].
  intros j Hj. rewrite nth_blk_at by exact Hj. apply nth_ftruncate. lia.
Qed.

Lemma blk_at_ftruncate_new f k a : (length f <= a * bs)%nat -> (a * bs + bs <= k)%nat ->
  blk_at bs (ftruncate f k) a = zeros bs.
Proof.
  intros Hf Hk. apply blk_at_ext; [apply zeros_length|now rewrite ftruncate_length|].
  intros j _. unfold zeros. rewrite nth_repeat. apply nth_ftruncate_new. lia.
Qed.

(* Reopening: whatever happened before (any history h on a disk related to the
   register state s0), closing and reopening with n' blocks gives a disk that
   behaves, on every later history, as the register array whose first
   min(n,n') registers hold the last values written and whose further
   registers are zero. *)
Definition regs_reopened (s : regs) (n' : Z) : regs :=
  {| size := n'; reg := fun a => if a <? size s then reg s a else zeros bs |}.

Theorem reopen_refines d0 s0 h n' d2 : Rfile bs d0 s0 -> Forall addr_ok h ->
  0 <= n' -> n' * Z.of_nat bs < 2 ^ 63 ->
  let d1 := fst (run (file_step bs) d0 h) in
  let s1 := fst (run (regs_step bs) s0 h) in
  open_disk n' (Some (close_disk d1)) = Some d2 ->
  Rfile bs d2 (regs_reopened s1 n').
Proof.
  intros HR Hh Hn' Hw d1 s1 Ho.
  pose proof (proj2 (file_run bs d0 s0 h HR Hh)) as HR1. fold d1 s1 in HR1.
  rewrite open_disk_eq in Ho by assumption. injection Ho as <-.
  assert (H64 : n' * Z.of_nat bs < 2 ^ 64) by (eapply Z.lt_trans; [exact Hw|reflexivity]).
  unfold Rfile, regs_reopened, close_disk; cbn [size reg nblocks file].
  repeat split; try assumption; [apply ftruncate_length|].
  intros a Ha.
  assert (Hk : (Z.to_nat a * bs + bs <= Z.to_nat n' * bs)%nat) by (apply mul_lt_step; lia).
  destruct (Z.ltb_spec a (size s1)) as [Hlt|Hge].
  - destruct (Rfile_block bs d1 s1 a HR1 ltac:(lia)) as (_ & Hin & <-).
    now apply blk_at_ftruncate_keep.
  - apply blk_at_ftruncate_new; [|exact Hk].
    destruct HR1 as (_ & Hn0 & _ & -> & _). apply Nat.mul_le_mono_r. lia.
Qed.

(* hence: every later read returns the last value written before the reopen
   (or zero for a block that did not exist) *)
Corollary reopen_outs d0 s0 h n' d2 h' : Rfile bs d0 s0 -> Forall addr_ok h -> Forall addr_ok h' ->
  0 <= n' -> n' * Z.of_nat bs < 2 ^ 63 ->
  open_disk n' (Some (close_disk (fst (run (file_step bs) d0 h)))) = Some d2 ->
  outs (file_step bs) d2 h' = outs (regs_step bs) (regs_reopened (fst (run (regs_step bs) s0 h)) n') h'.
Proof.
  intros HR Hh Hh' Hn' Hw Ho. apply file_run; [|exact Hh'].
  exact (reopen_refines d0 s0 h n' d2 HR Hh Hn' Hw Ho).
Qed.

(* opening any prior image (or none) yields a register array: block a holds
   the a-th complete block of the image, blocks beyond the image are zero *)
Theorem open_any_image n prev d : 0 <= n -> n * Z.of_nat bs < 2 ^ 63 ->
  open_disk n prev = Some d ->
  Rfile bs d {| size := n; reg := fun a => blk_at bs (file d) (Z.to_nat a) |}.
Proof.
  intros Hn Hw Ho. rewrite open_disk_eq in Ho by assumption. injection Ho as <-.
  unfold Rfile; cbn [size reg nblocks file]. repeat split; try assumption.
  - eapply Z.lt_trans; [exact Hw|reflexivity].
  - apply ftruncate_length.
Qed.

End WithBlockSize.
