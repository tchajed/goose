(* primitive.WaitTimeout (to which machine.WaitTimeout delegates) as a
   transition system:

     func WaitTimeout(cond *sync.Cond, timeoutMs uint64) {
        done := make(chan struct{})
        go func() { cond.Wait(); cond.L.Unlock(); close(done) }()
        select {
        case <-time.After(...): cond.L.Lock(); return
        case <-done:            cond.L.Lock(); return } }

   with sync.Cond.Wait = { add to the notify list; L.Unlock(); wait for a
   signal; L.Lock() }.  The caller calls it holding L, any number of times; each
   call spawns a helper; helpers of timed-out calls stay behind and are woken
   by later signals.  The environment (other goroutines) locks/unlocks L and
   signals/broadcasts at any time; the timer may fire at any time. *)
From Coq Require Import List Arith.
From GV Require Import Conc.Lin.
Import ListNotations.

Inductive owner := OCaller | OHelper (k : nat) | OEnv.
Inductive hst := HNone | H0 | H2 | H3 | H4 | H5 | HEnd.
  (* not spawned / spawned, before Wait / on the notify list, L released / woken, wants L /
     holds L / released L, about to close done / finished *)
Inductive cst := COut | CSel (k : nat) | CLock (k : nat).
  (* outside the call / in the select of call k / past the select, wants L *)

Record wcfg := {
  mu : option owner;          (* who holds cond.L *)
  cal : cst;
  hs : nat -> hst;            (* helper of call k *)
  nh : nat;                   (* number of calls so far *)
  dn : nat -> bool;           (* done channel of call k closed *)
  fired : bool;               (* the timer of the current call has fired *)
  crashed : bool              (* sync: unlock of unlocked mutex (fatal error) *)
}.

Definition w_init : wcfg :=
  {| mu := None; cal := COut; hs := fun _ => HNone; nh := 0; dn := fun _ => false; fired := false; crashed := false |}.

Definition set_mu c m := {| mu := m; cal := cal c; hs := hs c; nh := nh c; dn := dn c; fired := fired c; crashed := crashed c |}.
Definition set_cal c x := {| mu := mu c; cal := x; hs := hs c; nh := nh c; dn := dn c; fired := fired c; crashed := crashed c |}.
Definition set_h c k x := {| mu := mu c; cal := cal c; hs := upd (hs c) k x; nh := nh c; dn := dn c; fired := fired c; crashed := crashed c |}.

Inductive wstep : wcfg -> wcfg -> Prop :=
(* the caller, outside the call *)
| w_c_lock c : cal c = COut -> mu c = None -> wstep c (set_mu c (Some OCaller))
| w_c_unlock c : cal c = COut -> mu c = Some OCaller -> wstep c (set_mu c None)
| w_c_call c : cal c = COut -> mu c = Some OCaller ->
    wstep c {| mu := mu c; cal := CSel (nh c); hs := upd (hs c) (nh c) H0; nh := S (nh c); dn := dn c;
               fired := false; crashed := crashed c |}
(* inside the call *)
| w_timer c k : cal c = CSel k ->
    wstep c {| mu := mu c; cal := cal c; hs := hs c; nh := nh c; dn := dn c; fired := true; crashed := crashed c |}
| w_c_timeout c k : cal c = CSel k -> fired c = true -> wstep c (set_cal c (CLock k))
| w_c_done c k : cal c = CSel k -> dn c k = true -> wstep c (set_cal c (CLock k))
| w_c_return c k : cal c = CLock k -> mu c = None -> wstep c (set_cal (set_mu c (Some OCaller)) COut)
(* helper k *)
| w_h_wait c k : hs c k = H0 ->
    wstep c {| mu := None; cal := cal c; hs := upd (hs c) k H2; nh := nh c; dn := dn c; fired := fired c;
               crashed := match mu c with None => true | Some _ => crashed c end |}
| w_h_acquire c k : hs c k = H3 -> mu c = None -> wstep c (set_h (set_mu c (Some (OHelper k))) k H4)
| w_h_release c k : hs c k = H4 ->
    wstep c {| mu := None; cal := cal c; hs := upd (hs c) k H5; nh := nh c; dn := dn c; fired := fired c;
               crashed := match mu c with None => true | Some _ => crashed c end |}
| w_h_close c k : hs c k = H5 ->
    wstep c {| mu := mu c; cal := cal c; hs := upd (hs c) k HEnd; nh := nh c; dn := upd (dn c) k true;
               fired := fired c; crashed := crashed c |}
(* the environment *)
| w_signal c k : hs c k = H2 -> wstep c (set_h c k H3)
| w_broadcast c :
    wstep c {| mu := mu c; cal := cal c; hs := fun k => match hs c k with H2 => H3 | x => x end; nh := nh c;
               dn := dn c; fired := fired c; crashed := crashed c |}
| w_e_lock c : mu c = None -> wstep c (set_mu c (Some OEnv))
| w_e_unlock c : mu c = Some OEnv -> wstep c (set_mu c None).

Inductive wreach : wcfg -> Prop :=
| wr_init : wreach w_init
| wr_step c c' : wreach c -> wstep c c' -> wreach c'.

Definition in_call (c : wcfg) (k : nat) : Prop := cal c = CSel k \/ cal c = CLock k.

Definition winv (c : wcfg) : Prop :=
  crashed c = false /\
  (* a helper about to enter Wait is the current call's, and the caller still holds L for it to release *)
  (forall k, hs c k = H0 -> in_call c k /\ mu c = Some OCaller) /\
  (forall k, hs c k = H4 <-> mu c = Some (OHelper k)) /\
  (* inside the call the caller holds L only until its helper enters Wait *)
  (mu c = Some OCaller -> cal c = COut \/ exists k, in_call c k /\ hs c k = H0).

Lemma winv_init : winv w_init.
Proof.
  unfold winv, w_init; cbn.
  split; [reflexivity|]. split; [intros k H; discriminate|].
  split; [intros k; split; intros H; discriminate|]. intros H; discriminate.
Qed.

Lemma in_call_unique c k j : in_call c k -> in_call c j -> j = k.
Proof. intros [E|E] [E'|E']; congruence. Qed.

Lemma not_in_call_out c k : cal c = COut -> ~ in_call c k.
Proof. intros H [E|E]; congruence. Qed.

Ltac updk := unfold upd in *; repeat match goal with
  | |- context [Nat.eq_dec ?a ?b] => destruct (Nat.eq_dec a b); subst
  | H : context [Nat.eq_dec ?a ?b] |- _ => destruct (Nat.eq_dec a b); subst
  end.

(* the lock is with a holder on which no helper depends: nobody, the
   environment, the caller outside the call *)
Definition idle (c : wcfg) (m : option owner) : Prop :=
  (forall k, m <> Some (OHelper k)) /\ (m = Some OCaller -> cal c = COut).

(* then no helper is about to enter Wait or holds L, and this is all the
   invariant says *)
Lemma winv_idle c : idle c (mu c) ->
  winv c <-> crashed c = false /\ forall k, hs c k <> H0 /\ hs c k <> H4.
Proof.
  intros [Hnh Hco]. unfold winv. split.
  - intros (Hcr & Hh0 & Hh4 & _). split; [exact Hcr|]. intros k. split; intros Hk.
    + destruct (Hh0 k Hk) as [Hin Hm]. exact (not_in_call_out c k (Hco Hm) Hin).
    + apply Hh4 in Hk. exact (Hnh k Hk).
  - intros [Hcr Hq]. split; [exact Hcr|]. split; [intros k Hk; now destruct (Hq k)|]. split.
    + intros k. split; intros Hk; [now destruct (Hq k)|now destruct (Hnh k)].
    + intros Hm. left. exact (Hco Hm).
Qed.

Lemma winv_set_mu c m : winv c -> idle c (mu c) -> idle c m -> winv (set_mu c m).
Proof. intros Hinv Ho Hm. apply winv_idle; [exact Hm|]. apply (winv_idle c Ho), Hinv. Qed.

(* the select is left: the call stays the same call *)
Lemma winv_select_exit c k : winv c -> cal c = CSel k -> winv (set_cal c (CLock k)).
Proof.
  intros (Hcr & Hh0 & Hh4 & Hmu) Hc.
  assert (Hic : forall j, in_call (set_cal c (CLock k)) j <-> in_call c j).
  { intros j. unfold in_call, set_cal; cbn [cal]. rewrite Hc. split; intros [E|E]; try discriminate; injection E as ->; auto. }
  unfold winv. change (mu (set_cal c (CLock k))) with (mu c). change (hs (set_cal c (CLock k))) with (hs c).
  split; [exact Hcr|]. split. { intros j Hj. destruct (Hh0 j Hj) as [Hi Hm']. split; [now apply Hic|exact Hm']. }
  split; [exact Hh4|].
  intros Hm'. destruct (Hmu Hm') as [E|(j & Hj & Hj0)]; [congruence|]. right. exists j. split; [now apply Hic|exact Hj0].
Qed.

(* the invariant looks at a helper only to ask whether it is about to enter
   Wait (H0) or holds L (H4): moves between the other states keep it, whatever
   becomes of the counters, the done channels and the timer *)
Lemma winv_hs c h n d f : winv c ->
  (forall k, h k = H0 <-> hs c k = H0) -> (forall k, h k = H4 <-> hs c k = H4) ->
  winv {| mu := mu c; cal := cal c; hs := h; nh := n; dn := d; fired := f; crashed := crashed c |}.
Proof.
  intros (Hcr & Hh0 & Hh4 & Hmu) E0 E4. unfold winv, in_call; cbn [mu cal hs crashed].
  split; [exact Hcr|]. split. { intros k Hk. apply Hh0, E0, Hk. }
  split. { intros k. rewrite E4. apply Hh4. }
  intros Hm. destruct (Hmu Hm) as [E|(k & Hk & Hk0)]; [now left|]. right. exists k. split; [exact Hk|apply E0, Hk0].
Qed.

Lemma upd_neither (f : nat -> hst) k y z j : f k <> z -> y <> z -> upd f k y j = z <-> f j = z.
Proof. intros Hf Hy. updk; [split; congruence|reflexivity]. Qed.

Theorem winv_step c c' : winv c -> wstep c c' -> winv c'.
Proof.
  intros Hinv Hs. pose proof Hinv as (Hcr & Hh0 & Hh4 & _).
  destruct Hs as [c Hc Hm|c Hc Hm|c Hc Hm|c k Hc|c k Hc Hf|c k Hc Hd|c k Hc Hm
                 |c k Hk|c k Hk Hm|c k Hk|c k Hk|c k Hk|c|c Hm|c Hm].
  - (* the caller locks L outside the call *)
    apply winv_set_mu; [exact Hinv|split; congruence..].
  - (* ... and unlocks it *)
    apply winv_set_mu; [exact Hinv|split; congruence..].
  - (* the caller calls WaitTimeout *)
    unfold winv, in_call, set_mu, set_h in *; cbn [mu cal hs crashed].
    split; [exact Hcr|]. split.
    { intros k Hk. updk; [split; [now left|exact Hm]|]. destruct (Hh0 k Hk) as [[E|E] _]; congruence. }
    split. { intros k. updk; [split; congruence|apply Hh4]. }
    intros _. right. exists (nh c). split; [now left|]. updk; congruence.
  - (* the timer fires: no field of the invariant changes *)
    exact Hinv.
  - (* the select is left on the timeout *)
    apply winv_select_exit; assumption.
  - (* ... on done *)
    apply winv_select_exit; assumption.
  - (* the caller re-acquires L and returns *)
    apply winv_idle; [split; [discriminate|reflexivity]|]. apply (winv_idle c); [split; congruence|exact Hinv].
  - (* helper: cond.Wait releases L *)
    destruct (Hh0 k Hk) as [Hik Hm]. apply winv_idle; [split; discriminate|]. cbn [mu hs crashed]. rewrite Hm.
    split; [exact Hcr|]. intros j. unfold upd. destruct (Nat.eq_dec j k) as [->|Hne]; [split; discriminate|]. split; intros Hj.
    + apply Hne. destruct (Hh0 j Hj) as [Hij _]. exact (in_call_unique c k j Hik Hij).
    + apply Hh4 in Hj. congruence.
  - (* helper: Wait re-acquires L *)
    unfold winv, in_call, set_mu, set_h in *; cbn [mu cal hs crashed].
    split; [exact Hcr|]. split.
    { intros j Hj. updk; [discriminate|]. destruct (Hh0 j Hj) as [_ E]. congruence. }
    split. { intros j. updk; [split; reflexivity|]. split; intros Hj; [apply Hh4 in Hj|]; congruence. }
    discriminate.
  - (* helper: cond.L.Unlock() *)
    pose proof (proj1 (Hh4 k) Hk) as Hm. apply winv_idle; [split; discriminate|]. cbn [mu hs crashed]. rewrite Hm.
    split; [exact Hcr|]. intros j. updk; [split; discriminate|].
    split; intros Hj; [destruct (Hh0 j Hj) as [_ E]|apply Hh4 in Hj]; congruence.
  - (* helper: close(done), from H5 to HEnd *)
    apply winv_hs; [exact Hinv|intros j; apply upd_neither; congruence..].
  - (* signal takes one helper from H2 to H3 *)
    apply winv_hs; [exact Hinv|intros j; apply upd_neither; congruence..].
  - (* ... broadcast any number *)
    apply winv_hs; [exact Hinv|intros j; destruct (hs c j); try reflexivity; split; discriminate..].
  - (* the environment locks L *)
    apply winv_set_mu; [exact Hinv|split; congruence..].
  - (* ... and unlocks it *)
    apply winv_set_mu; [exact Hinv|split; congruence..].
Qed.

Theorem wreach_inv c : wreach c -> winv c.
Proof. induction 1; [apply winv_init|eapply winv_step; eauto]. Qed.

(* no run ever unlocks an unlocked mutex (which would be a fatal error) *)
Theorem wait_never_crashes c : wreach c -> crashed c = false.
Proof. intros H. apply (wreach_inv c H). Qed.

(* WaitTimeout returns with the caller's lock held ... *)
Theorem wait_returns_locked c c' k : cal c = CLock k -> wstep c c' -> cal c' = COut ->
  mu c' = Some OCaller.
Proof.
  intros Hc Hs Ho. destruct Hs; unfold set_mu, set_cal, set_h in *; cbn [cal mu] in *; congruence.
Qed.

(* ... and it stays held until the caller itself releases it: once returned
   (or whenever the caller holds L outside the call), no step of a helper —
   including the stale helpers of earlier timed-out calls — of the timer or of
   the environment changes the holder *)
Theorem caller_keeps_lock c c' : wreach c -> cal c = COut -> mu c = Some OCaller -> wstep c c' ->
  mu c' <> mu c -> c' = set_mu c None (* the caller's own Unlock *).
Proof.
  intros Hr Hc Hm Hs Hne. destruct (wreach_inv c Hr) as (_ & Hh0 & Hh4 & _).
  destruct Hs; unfold set_mu, set_cal, set_h in *; cbn [cal mu hs] in *; try congruence.
  - (* a helper about to enter Wait exists only inside a call *)
    match goal with H : hs c ?k = H0 |- _ => destruct (Hh0 k H) as [[E|E] _]; congruence end.
  - match goal with H : hs c ?k = H4 |- _ => apply Hh4 in H; congruence end.
Qed.

(* no deadlock inside the call: in the select the timer can always fire and a
   fired timer lets the caller proceed; and whenever the caller waits for L,
   L is free or its holder has an enabled step that releases it *)
Theorem wait_select_can_proceed c k : cal c = CSel k ->
  exists c1, wstep c c1 /\ cal c1 = CSel k /\ fired c1 = true /\ exists c2, wstep c1 c2 /\ cal c2 = CLock k.
Proof.
  intros Hc. eexists. split; [eapply w_timer; eauto|]. cbn [cal fired]. split; [exact Hc|]. split; [reflexivity|].
  eexists. split; [eapply (w_c_timeout _ k); cbn; auto|]. reflexivity.
Qed.

Theorem wait_lock_can_be_released c k : wreach c -> cal c = CLock k ->
  (exists c', wstep c c' /\ cal c' = COut /\ mu c' = Some OCaller)        (* L is free: return *)
  \/ (exists c', wstep c c' /\ mu c' = None /\ cal c' = CLock k).          (* its holder releases it *)
Proof.
  intros Hr Hc. destruct (wreach_inv c Hr) as (_ & _ & Hh4 & Hmu).
  destruct (mu c) as [[|j|]|] eqn:Hm.
  - (* still the caller's original hold: the helper of this call has not entered Wait yet *)
    destruct (Hmu eq_refl) as [E|(j & Hj & Hj0)]; [congruence|].
    right. eexists. split; [eapply (w_h_wait c j Hj0)|]. cbn [mu cal]. auto.
  - right. eexists. split; [eapply (w_h_release c j); now apply Hh4|]. cbn [mu cal]. auto.
  - right. eexists. split; [eapply (w_e_unlock c Hm)|]. unfold set_mu; cbn [mu cal]. auto.
  - left. eexists. split; [eapply (w_c_return c k Hc Hm)|]. unfold set_cal, set_mu; cbn [mu cal]. auto.
Qed.

(* Non-vacuity: a run in which a call times out, its stale helper is woken by a
   late signal, and a second call returns through the done channel. *)
Ltac go tac :=
  match goal with R : wreach ?c |- _ =>
    let S := fresh "S" in eassert (S : wstep c _) by tac; apply (wr_step _ _ R) in S; clear R; cbn in S
  end.

Example wait_example_run : exists c, wreach c /\ nh c = 2 /\ cal c = COut /\ mu c = Some OCaller /\ hs c 0 = HEnd.
Proof.
  pose proof wr_init as R.
  go ltac:(apply w_c_lock; reflexivity).
  go ltac:(apply w_c_call; reflexivity).
  go ltac:(apply (w_h_wait _ 0); reflexivity).
  go ltac:(apply (w_timer _ 0); reflexivity).
  go ltac:(apply (w_c_timeout _ 0); reflexivity).
  go ltac:(apply (w_c_return _ 0); reflexivity).
  go ltac:(apply (w_signal _ 0); reflexivity).      (* late signal wakes the stale helper *)
  go ltac:(apply w_c_unlock; reflexivity).
  go ltac:(apply (w_h_acquire _ 0); reflexivity).
  go ltac:(apply (w_h_release _ 0); reflexivity).
  go ltac:(apply (w_h_close _ 0); reflexivity).
  go ltac:(apply w_c_lock; reflexivity).
  go ltac:(apply w_c_call; reflexivity).
  go ltac:(apply (w_h_wait _ 1); reflexivity).
  go ltac:(apply (w_signal _ 1); reflexivity).
  go ltac:(apply (w_h_acquire _ 1); reflexivity).
  go ltac:(apply (w_h_release _ 1); reflexivity).
  go ltac:(apply (w_h_close _ 1); reflexivity).
  go ltac:(apply (w_c_done _ 1); reflexivity).
  go ltac:(apply (w_c_return _ 1); reflexivity).
  match goal with R : wreach ?c |- _ => exists c; split; [exact R|] end. cbn. auto.
Qed.
