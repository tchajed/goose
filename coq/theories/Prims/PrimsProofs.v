From Coq Require Import List ZArith Lia Bool.
From GV Require Import Prims.Prims.
Import ListNotations.
Open Scope Z_scope.

Lemma value_app a b acc : value (a ++ b) acc = value b (value a acc).
Proof. revert acc; induction a as [|d a IH]; intros acc; [reflexivity|]. cbn [app value]. apply IH. Qed.

(* the recursion of digits within its range: fewer than ten, or the digits of
   n / 10 followed by the last digit *)
Lemma digits_ind (P : Z -> list Z -> Prop) :
  (forall n, 0 <= n < 10 -> P n [n]) ->
  (forall n ds, 10 <= n -> P (n / 10) ds -> P n (ds ++ [n mod 10])) ->
  forall fuel n, 0 <= n < 10 ^ (Z.of_nat fuel + 1) -> P n (digits fuel n).
Proof.
  intros Hsmall Hstep. induction fuel as [|f IH]; intros n Hn; cbn [digits].
  - change (10 ^ (Z.of_nat 0 + 1)) with 10 in Hn. rewrite Z.mod_small by lia. apply Hsmall, Hn.
  - destruct (Z.ltb_spec n 10) as [Hlt|Hge]; [apply Hsmall; lia|]. apply Hstep, IH; [exact Hge|].
    split; [apply Z.div_pos; lia|].
    rewrite Nat2Z.inj_succ, Z.add_succ_l, Z.pow_succ_r in Hn by lia.
    apply Z.div_lt_upper_bound; lia.
Qed.

Lemma is_digit_iff d : is_digit d = true <-> 0 <= d <= 9.
Proof. unfold is_digit. rewrite andb_true_iff, !Z.leb_le. reflexivity. Qed.

Lemma digits_value fuel n : 0 <= n < 10 ^ (Z.of_nat fuel + 1) -> value (digits fuel n) 0 = n.
Proof.
  apply (digits_ind (fun n ds => value ds 0 = n)); [reflexivity|]. clear. intros n ds Hn IH.
  rewrite value_app, IH. cbn [value]. pose proof (Z.div_mod n 10 ltac:(lia)). lia.
Qed.

Lemma digits_all_digits fuel n : 0 <= n < 10 ^ (Z.of_nat fuel + 1) -> forallb is_digit (digits fuel n) = true.
Proof.
  apply (digits_ind (fun _ ds => forallb is_digit ds = true)); clear.
  - intros n Hn. cbn [forallb]. rewrite andb_true_r. apply is_digit_iff. lia.
  - intros n ds Hn IH. rewrite forallb_app, IH. cbn [forallb andb]. rewrite andb_true_r. apply is_digit_iff.
    pose proof (Z.mod_pos_bound n 10 ltac:(lia)). lia.
Qed.

(* no leading zero: the first digit is non-zero unless the number is 0 (then the string is "0") *)
Lemma digits_head fuel n : 0 <= n < 10 ^ (Z.of_nat fuel + 1) ->
  exists d t, digits fuel n = d :: t /\ (d = 0 -> n = 0 /\ t = []).
Proof.
  apply (digits_ind (fun n ds => exists d t, ds = d :: t /\ (d = 0 -> n = 0 /\ t = []))); clear; [eauto|].
  intros n ds Hn (d & t & -> & H0). exists d, (t ++ [n mod 10]). split; [reflexivity|].
  (* the first digit of n / 10 is not zero, since n / 10 is not *)
  intros Hd. destruct (H0 Hd) as [Hz _]. exfalso. pose proof (Z.div_mod n 10 ltac:(lia)). pose proof (Z.mod_pos_bound n 10 ltac:(lia)). lia.
Qed.

(* the fuel of to_string covers every uint64: 2^64 < 10^20 *)
Lemma uint64_in_range n : 0 <= n < 2 ^ 64 -> 0 <= n < 10 ^ (Z.of_nat 19 + 1).
Proof. change (Z.of_nat 19 + 1) with 20. lia. Qed.

Theorem to_string_roundtrip n : 0 <= n < 2 ^ 64 -> of_string (to_string n) = n.
Proof. intros H. apply digits_value, uint64_in_range, H. Qed.

Theorem to_string_digits_only n : 0 <= n < 2 ^ 64 -> forallb is_digit (to_string n) = true.
Proof. intros H. apply digits_all_digits, uint64_in_range, H. Qed.

Theorem to_string_no_leading_zero n : 0 <= n < 2 ^ 64 ->
  exists d t, to_string n = d :: t /\ (d = 0 -> n = 0 /\ t = []).
Proof. intros H. apply digits_head, uint64_in_range, H. Qed.

Theorem to_string_injective a b : 0 <= a < 2 ^ 64 -> 0 <= b < 2 ^ 64 -> to_string a = to_string b -> a = b.
Proof. intros Ha Hb E. rewrite <- (to_string_roundtrip a Ha), <- (to_string_roundtrip b Hb). now rewrite E. Qed.

(* ---------------------------------------------------------------- MapClear *)
Section MapClear.
  Context {K V : Type} (keq : K -> K -> bool).

  Lemma mdelete_In k (m : list (K * V)) e : In e (mdelete keq k m) <-> In e m /\ keq (fst e) k = false.
  Proof. unfold mdelete. rewrite filter_In. rewrite negb_true_iff. tauto. Qed.

  Lemma clear_loop_In order : forall (m : list (K * V)) e,
    In e (clear_loop keq order m) <-> In e m /\ forall k, In k order -> keq (fst e) k = false.
  Proof.
    induction order as [|k order IH]; intros m e; cbn [clear_loop fold_left].
    - split; [intros H; split; [exact H|intros k []]|tauto].
    - fold (clear_loop keq order (mdelete keq k m)). rewrite IH, mdelete_In. split.
      + intros [[H1 H2] H3]. split; [exact H1|]. intros k' [<-|Hk]; auto.
      + intros [H1 H2]. split; [split; [exact H1|apply H2; now left]|]. intros k' Hk. apply H2. now right.
  Qed.

  (* the original loop empties every map whose keys are reflexive under ==,
     whatever the iteration order *)
  Theorem clear_loop_empties (m : list (K * V)) order :
    (forall e, In e m -> keq (fst e) (fst e) = true) ->
    (forall e, In e m -> In (fst e) order) ->
    clear_loop keq order m = [].
  Proof.
    intros Hrefl Hall. destruct (clear_loop keq order m) as [|e t] eqn:E; [reflexivity|].
    assert (Hin : In e (clear_loop keq order m)) by (rewrite E; now left).
    apply clear_loop_In in Hin as [H1 H2]. specialize (H2 (fst e) (Hall e H1)). rewrite Hrefl in H2 by exact H1. discriminate.
  Qed.

  (* an entry whose key is not equal to itself (a NaN key) survives the loop *)
  Theorem clear_loop_keeps_irreflexive (m : list (K * V)) e :
    In e m -> (forall k, keq (fst e) k = false) -> forall order, In e (clear_loop keq order m).
  Proof. intros Hin Hirr order. apply clear_loop_In. split; [exact Hin|]. intros k _. apply Hirr. Qed.

  (* the builtin clear leaves the map empty, and a cleared map is usable: it
     behaves like a new map *)
  Theorem clear_builtin_empty (m : list (K * V)) : clear_builtin m = [].
  Proof. reflexivity. Qed.
End MapClear.

(* ---------------------------------------------------------------- Assume / Assert *)
Theorem assume_panics_iff c : assume c = Panics <-> c = false.
Proof. destruct c; cbn; split; intros; congruence. Qed.
Theorem assert_panics_iff c : assert c = Panics <-> c = false.
Proof. destruct c; cbn; split; intros; congruence. Qed.
