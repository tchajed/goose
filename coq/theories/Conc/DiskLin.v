(* The verified checker instantiated for disks: decides whether a recorded
   history of Read/ReadTo/Write/Size calls is linearizable w.r.t. the
   register-array specification. *)
From Coq Require Import List ZArith.
From GV Require Import Disk.Disk Conc.Lin Conc.LinCheck.
Import ListNotations.
Open Scope Z_scope.

Fixpoint block_eqb (a b : block) : bool :=
  match a, b with
  | [], [] => true
  | x :: a', y :: b' => Z.eqb x y && block_eqb a' b'
  | _, _ => false
  end.

Lemma block_eqb_spec a b : block_eqb a b = true <-> a = b.
Proof. apply (list_eqb_spec Z.eqb); [exact Z.eqb_eq|]. intros [|] [|]; reflexivity. Qed.

Definition out_eqb (a b : out) : bool :=
  match a, b with
  | RBlock x, RBlock y => block_eqb x y
  | RUnit, RUnit => true
  | RSize x, RSize y => Z.eqb x y
  | RRefused, RRefused => true
  | _, _ => false
  end.

Lemma out_eqb_spec a b : out_eqb a b = true <-> a = b.
Proof.
  destruct a, b; cbn [out_eqb]; try (split; discriminate); try (split; reflexivity).
  - rewrite block_eqb_spec. split; congruence.
  - rewrite Z.eqb_eq. split; congruence.
Qed.

Definition disk_lin_check (bs : nat) (n : Z) (ts : list tid) (h : list (@hevent op out)) : bool :=
  lin_check (regs_step bs) out_eqb ts (regs_init bs n) h.

Theorem disk_lin_check_correct bs n ts h : threads_in ts h ->
  (disk_lin_check bs n ts h = true <-> linearizable (regs_step bs) (regs_init bs n) (rev h)).
Proof. apply lin_check_correct. exact out_eqb_spec. Qed.
