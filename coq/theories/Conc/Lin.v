(* Linearizability of histories with respect to a sequential object
   [seq : St -> Op -> St * Res], in its linearization-point form:

   a history (invocation and response events of threads, each thread having at
   most one operation outstanding) is linearizable iff a linearization point
   can be inserted for (some of the pending and all of the completed)
   operations, each between the invocation and the response of its operation,
   such that the operations taken in the order of their linearization points
   form an execution of the sequential object whose results are the responses.
   Pending operations may or may not have taken effect.  Since the points lie
   inside the operations' intervals, the order respects real time.  (This is
   the standard characterisation of Herlihy-Wing linearizability.) *)
From Coq Require Import List Arith.
Import ListNotations.

Definition tid := nat.

Definition upd {A} (f : tid -> A) (t : tid) (x : A) : tid -> A :=
  fun t' => if Nat.eq_dec t' t then x else f t'.

Lemma upd_same {A} (f : tid -> A) t x : upd f t x t = x.
Proof. unfold upd. destruct (Nat.eq_dec t t); congruence. Qed.
Lemma upd_other {A} (f : tid -> A) t t' x : t' <> t -> upd f t x t' = f t'.
Proof. unfold upd. destruct (Nat.eq_dec t' t); congruence. Qed.

Lemma upd_all {A} (P : A -> Prop) (f : tid -> A) t x :
  (forall t', P (f t')) -> P x -> forall t', P (upd f t x t').
Proof. intros Hf Hx t'. unfold upd. destruct (Nat.eq_dec t' t); auto. Qed.

Section Lin.
Context {St Op Res : Type}.

Inductive event :=
| EInv (t : tid) (o : Op)
| ELin (t : tid) (o : Op) (r : Res)        (* linearization point *)
| EResp (t : tid) (r : Res).

(* Traces are kept newest-first. A trace with linearization points is
   well-formed when every thread's events follow  Inv ; Lin ; Resp  with the
   response carrying the value fixed at the linearization point ... *)
Inductive lstate := LIdle | LInv (o : Op) | LLin (o : Op) (r : Res).

Inductive wf_tr : list event -> (tid -> lstate) -> Prop :=
| wf_nil : wf_tr [] (fun _ => LIdle)
| wf_inv tau f t o : wf_tr tau f -> f t = LIdle -> wf_tr (EInv t o :: tau) (upd f t (LInv o))
| wf_lin tau f t o r : wf_tr tau f -> f t = LInv o -> wf_tr (ELin t o r :: tau) (upd f t (LLin o r))
| wf_resp tau f t o r : wf_tr tau f -> f t = LLin o r -> wf_tr (EResp t r :: tau) (upd f t LIdle).

Variable seq : St -> Op -> St * Res.

(* ... and legal when the linearization points, in trace order, form an
   execution of the sequential object. *)
Inductive legal (s0 : St) : list event -> St -> Prop :=
| lg_nil : legal s0 [] s0
| lg_inv tau s t o : legal s0 tau s -> legal s0 (EInv t o :: tau) s
| lg_resp tau s t r : legal s0 tau s -> legal s0 (EResp t r :: tau) s
| lg_lin tau s t o r : legal s0 tau s -> r = snd (seq s o) ->
    legal s0 (ELin t o r :: tau) (fst (seq s o)).

Lemma legal_inv s0 tau s : legal s0 tau s ->
  match tau with
  | [] => s = s0
  | ELin t o r :: tau' => exists s', legal s0 tau' s' /\ r = snd (seq s' o) /\ s = fst (seq s' o)
  | _ :: tau' => legal s0 tau' s
  end.
Proof. destruct 1; eauto. Qed.

(* the history: what clients can observe *)
Inductive hevent := HInv (t : tid) (o : Op) | HResp (t : tid) (r : Res).
Fixpoint history (tau : list event) : list hevent :=
  match tau with
  | [] => []
  | EInv t o :: tau' => HInv t o :: history tau'
  | EResp t r :: tau' => HResp t r :: history tau'
  | ELin _ _ _ :: tau' => history tau'
  end.

Definition linearizable (s0 : St) (h : list hevent) : Prop :=
  exists tau f s, history tau = h /\ wf_tr tau f /\ legal s0 tau s.

End Lin.

(* Linearizability transfers along a simulation between sequential objects:
   if every operation invoked in the history is [ok] and [R] is preserved with
   equal results on ok operations, a history linearizable for seq1 from s1 is
   linearizable for seq2 from any R-related s2. *)
Section Transfer.
Context {S1 S2 Op Res : Type}.
Variables (seq1 : S1 -> Op -> S1 * Res) (seq2 : S2 -> Op -> S2 * Res).
Variable R : S1 -> S2 -> Prop.
Variable ok : Op -> Prop.
Hypothesis sim : forall s1 s2 o, R s1 s2 -> ok o ->
  snd (seq1 s1 o) = snd (seq2 s2 o) /\ R (fst (seq1 s1 o)) (fst (seq2 s2 o)).

Definition ops_ok (tau : list (@event Op Res)) : Prop :=
  forall t o r, In (ELin t o r) tau -> ok o.

Lemma ops_ok_cons e tau :
  ops_ok (e :: tau) <-> match e with ELin _ o _ => ok o | _ => True end /\ ops_ok tau.
Proof.
  split.
  - intros H. split.
    + destruct e as [|t o r|]; [exact I| |exact I]. apply (H t o r). left. reflexivity.
    + intros t o r Hin. apply (H t o r). right. exact Hin.
  - intros [He H] t o r [->|Hin]; [exact He|exact (H t o r Hin)].
Qed.

Lemma legal_transfer s1 s2 tau a : R s1 s2 -> ops_ok tau -> legal seq1 s1 tau a ->
  exists b, legal seq2 s2 tau b /\ R a b.
Proof.
  intros HR Hok Hl. induction Hl as [|tau s t o Hl IH|tau s t r Hl IH|tau s t o r Hl IH Hr].
  { exists s2. split; [constructor|exact HR]. }
  all: apply ops_ok_cons in Hok as [Ho Hok]; destruct (IH Hok) as (b & Hb & HRb).
  - exists b. split; [constructor; exact Hb|exact HRb].
  - exists b. split; [constructor; exact Hb|exact HRb].
  - destruct (sim s b o HRb Ho) as [E HR'].
    exists (fst (seq2 b o)). split; [|exact HR'].
    constructor; [exact Hb|congruence].
Qed.

(* every linearized operation was invoked, so it suffices that invoked operations are ok *)
Lemma wf_lin_invoked (tau : list (@event Op Res)) f : wf_tr tau f ->
  (forall t o, In (EInv t o) tau -> ok o) ->
  (forall t, match f t with LInv o | LLin o _ => ok o | LIdle => True end) /\ ops_ok tau.
Proof.
  induction 1 as [|tau f t o Hwf IH Hf|tau f t o r Hwf IH Hf|tau f t o r Hwf IH Hf]; intros Hinv.
  { split; [intros t; exact I|]. intros t o r []. }
  all: destruct IH as [Hfs Hops]; [intros t0 o0 Hin; apply (Hinv t0); right; exact Hin|].
  all: pose proof (Hfs t) as Ht; rewrite Hf in Ht.
  all: split; [intros t'; apply upd_all; [exact Hfs|]|apply ops_ok_cons; auto].
  (* what is left: the new status of t is ok *)
  - apply (Hinv t). left. reflexivity.
  - exact Ht.
  - exact I.
Qed.

Lemma In_history_inv (tau : list (@event Op Res)) t o : In (EInv t o) tau -> In (HInv t o) (history tau).
Proof.
  induction tau as [|e tau IH]; [intros []|].
  intros [->|H]; [now left|]. destruct e; cbn [history]; auto; right; auto.
Qed.

Theorem linearizable_transfer s1 s2 h : R s1 s2 ->
  (forall t o, In (HInv t o) h -> ok o) ->
  linearizable seq1 s1 h -> linearizable seq2 s2 h.
Proof.
  intros HR Hok (tau & f & a & Hh & Hwf & Hl).
  assert (Hops : ops_ok tau).
  { apply (wf_lin_invoked tau f Hwf). intros t o Hin. apply (Hok t). rewrite <- Hh.
    now apply In_history_inv. }
  destruct (legal_transfer s1 s2 tau a HR Hops Hl) as (b & Hb & _).
  exists tau, f, b. auto.
Qed.
End Transfer.
