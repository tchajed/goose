(* Non-vacuity of the locking hypothesis: the same micro-step system WITHOUT
   the lock conditions reaches a torn read, and that history is not
   linearizable.  (So the theorem of SingleLock.v is not true for trivial
   reasons, and the per-run lock-shape obligations matter.) *)
From Coq Require Import List ZArith.
From GV Require Import Disk.Disk Conc.Lin Conc.SingleLock Conc.MemDiskConc Conc.DiskLin.
Import ListNotations.
Open Scope Z_scope.

Section Unlocked.
Context {St L Op Res : Type}.
Variable prog : Op -> list (@mstep St L).
Variable init : Op -> L.
Variable result : Op -> L -> Res.

(* state: shared state, thread states, trace (invocations/responses only) *)
Record ucfg := { ust : St; uthr : tid -> @tstate St L Op Res; utr : list (@hevent Op Res) }.

Inductive uaction := AInvoke (t : tid) (o : Op) | AStart (t : tid) | AMicro (t : tid) | AReturn (t : tid).

Definition ustep (c : ucfg) (a : uaction) : option ucfg :=
  match a with
  | AInvoke t o => match uthr c t with
                   | Idle => Some {| ust := ust c; uthr := upd (uthr c) t (Waiting o); utr := HInv t o :: utr c |}
                   | _ => None end
  | AStart t => match uthr c t with
                | Waiting o => Some {| ust := ust c; uthr := upd (uthr c) t (Running o (prog o) (init o) (result o (init o))); utr := utr c |}
                | _ => None end
  | AMicro t => match uthr c t with
                | Running o (m :: rest) l r =>
                    Some {| ust := fst (m (ust c) l); uthr := upd (uthr c) t (Running o rest (snd (m (ust c) l)) r); utr := utr c |}
                | _ => None end
  | AReturn t => match uthr c t with
                 | Running o [] l r => Some {| ust := ust c; uthr := upd (uthr c) t Idle; utr := HResp t (result o l) :: utr c |}
                 | _ => None end
  end.

Fixpoint urun (c : ucfg) (acts : list uaction) : option ucfg :=
  match acts with
  | [] => Some c
  | a :: rest => match ustep c a with Some c' => urun c' rest | None => None end
  end.
End Unlocked.

(* MemDisk with 1 block of 2 bytes; thread 0 writes [1;1], thread 1 reads while
   the write is half done. *)
Definition torn_schedule : list (@uaction op) :=
  [AInvoke 0%nat (OWrite 0 [1; 1]); AInvoke 1%nat (ORead 0); AStart 0%nat; AMicro 0%nat;
   AStart 1%nat; AMicro 1%nat; AMicro 1%nat; AReturn 1%nat; AMicro 0%nat; AReturn 0%nat].

Definition torn_history : list (@hevent op out) :=
  match urun (prog 2 1) (init 2) (result 2 1)
             {| ust := mem_init 2 1; uthr := fun _ => Idle; utr := [] |} torn_schedule with
  | Some c => utr c
  | None => []
  end.

Example unlocked_read_is_torn :
  torn_history = [HResp 0%nat RUnit; HResp 1%nat (RBlock [1; 0]); HInv 1%nat (ORead 0); HInv 0%nat (OWrite 0 [1; 1])].
Proof. vm_compute. reflexivity. Qed.

(* the block [1;0] was never written and is not the initial block: the history
   is not linearizable for the register specification (decided by the complete checker) *)
Example unlocked_not_linearizable :
  ~ linearizable (regs_step 2) (regs_init 2 1) torn_history.
Proof.
  intros H. rewrite <- (rev_involutive torn_history) in H.
  apply (disk_lin_check_correct 2 1 [0%nat; 1%nat]) in H.
  - vm_compute in H. discriminate.
  - intros e He. vm_compute in He.
    repeat (destruct He as [<-|He]; [cbn; auto|]); destruct He.
Qed.
