(* MemFs (machine/filesys/mem.go) as a single-lock object: every exported
   method is  fs.m.Lock(); defer fs.m.Unlock(); body  (Oblig/O14.v checks this on
   the regenerated skeletons), so each operation is ONE atomic step of the
   sequential MemFs model under the mutex. *)
From Coq Require Import List ZArith.
From GV Require Import Fs.Fs Fs.FsProofs Conc.Lin Conc.SingleLock Conc.LinCheck.
Import ListNotations.

Definition fmd (o : fop) : mode := MW.
Definition fprog (o : fop) : list (@mstep memfs (option fout)) :=
  [fun s _ => (fst (memfs_step s o), Some (snd (memfs_step s o)))].
Definition finit (o : fop) : option fout := None.
Definition fresult (o : fop) (l : option fout) : fout := match l with Some r => r | None => OInvalid end.

Lemma f_atomic s o : seq_atomic fprog finit fresult s o = memfs_step s o.
Proof. unfold seq_atomic, atomic, fprog. cbn. now destruct (memfs_step s o). Qed.

Theorem memfs_linearizable c :
  reachable fmd fprog finit fresult memfs_init c ->
  linearizable memfs_step memfs_init (history (tr c)).
Proof.
  intros H.
  apply (linearizable_transfer (seq_atomic fprog finit fresult) memfs_step eq (fun _ => True))
    with memfs_init; auto.
  - intros s _ o <- _. rewrite f_atomic. auto.
  - (* every operation takes the write lock: nothing to show for readers and lock-free operations *)
    apply (single_lock_linearizable fmd fprog finit fresult); [discriminate|discriminate|exact H].
Qed.

(* ---------------------------------------------------------------- transfer to the reference model *)
(* the operations of a trace in the order of their linearization points (oldest first) *)
Fixpoint lin_ops (tau : list (@event fop fout)) : list fop :=
  match tau with
  | [] => []
  | ELin _ o _ :: tau' => lin_ops tau' ++ [o]
  | _ :: tau' => lin_ops tau'
  end.

Lemma valid_history_snoc h o : valid_history (h ++ [o]) ->
  valid_history h /\ snd (ref_step (fst (frun ref_step fs_init h)) o) <> OInvalid.
Proof.
  unfold valid_history. unfold fouts at 1. rewrite frun_snoc. cbn [snd]. intros Hv.
  split; intros H; apply Hv, in_or_app; [now left|right; now left].
Qed.

(* [memfs_sim] asks that the reference model, in its current state, does not
   answer OInvalid: a condition on the state, not on the operation alone as
   [legal_transfer] wants.  [valid_history] gives it for the state reached by
   running [lin_ops], so that is the state the induction carries. *)
Lemma legal_memfs_to_ref tau a : legal memfs_step memfs_init tau a ->
  valid_history (lin_ops tau) ->
  legal ref_step fs_init tau (fst (frun ref_step fs_init (lin_ops tau))) /\
  a = memfs_of (fst (frun ref_step fs_init (lin_ops tau))).
Proof.
  induction 1 as [|tau s t o Hl IH|tau s t r Hl IH|tau s t o r Hl IH Hr]; cbn [lin_ops]; intros Hv.
  - split; [constructor|reflexivity].
  - destruct (IH Hv) as [Hb HR]. split; [now constructor|exact HR].
  - destruct (IH Hv) as [Hb HR]. split; [now constructor|exact HR].
  - apply valid_history_snoc in Hv as [Hv Hvo]. destruct (IH Hv) as [Hb ->].
    rewrite (memfs_sim _ o (ref_run_inv _ _ ref_inv_init) Hvo) in Hr |- *.
    rewrite frun_snoc. split; [|reflexivity]. constructor; [exact Hb|exact Hr].
Qed.

(* MemFs: every reachable history has linearization points that
   are legal for the MemFs model and — whenever the operations, taken in that
   linearization order, respect the documented preconditions — legal for the
   reference model too. *)
Theorem memfs_linearizable_ref c :
  reachable fmd fprog finit fresult memfs_init c ->
  exists tau f, history tau = history (tr c) /\ wf_tr tau f /\
    (exists a, legal memfs_step memfs_init tau a) /\
    (valid_history (lin_ops tau) -> exists b, legal ref_step fs_init tau b).
Proof.
  intros H. destruct (memfs_linearizable c H) as (tau & f & a & Hh & Hwf & Hl).
  exists tau, f. repeat split; eauto.
  intros Hv. eexists. apply (legal_memfs_to_ref tau a Hl Hv).
Qed.

(* ---------------------------------------------------------------- the verified checker for recorded histories *)
Fixpoint bytes_eqb (a b : bytes) : bool :=
  match a, b with
  | [], [] => true
  | x :: a', y :: b' => Z.eqb x y && bytes_eqb a' b'
  | _, _ => false
  end.
Lemma bytes_eqb_spec a b : bytes_eqb a b = true <-> a = b.
Proof. apply (list_eqb_spec Z.eqb); [exact Z.eqb_eq|]. intros [|] [|]; reflexivity. Qed.
Fixpoint nats_eqb (a b : list nat) : bool :=
  match a, b with
  | [], [] => true
  | x :: a', y :: b' => Nat.eqb x y && nats_eqb a' b'
  | _, _ => false
  end.
Lemma nats_eqb_spec a b : nats_eqb a b = true <-> a = b.
Proof. apply (list_eqb_spec Nat.eqb); [exact Nat.eqb_eq|]. intros [|] [|]; reflexivity. Qed.

Definition fout_eqb (a b : fout) : bool :=
  match a, b with
  | OFd x, OFd y => Nat.eqb x y
  | ONoFd, ONoFd | OUnit, OUnit | OInvalid, OInvalid => true
  | OBytes x, OBytes y => bytes_eqb x y
  | OBool x, OBool y => Bool.eqb x y
  | ONames x, ONames y => nats_eqb x y
  | _, _ => false
  end.
Lemma fout_eqb_spec a b : fout_eqb a b = true <-> a = b.
Proof.
  destruct a, b; cbn [fout_eqb]; try (split; discriminate); try (split; reflexivity).
  - rewrite Nat.eqb_eq. split; congruence.
  - rewrite bytes_eqb_spec. split; congruence.
  - rewrite Bool.eqb_true_iff. split; congruence.
  - rewrite nats_eqb_spec. split; congruence.
Qed.

(* descriptor numbers erased: for the directory-backed implementation, whose
   descriptor numbers are the kernel's *)
Definition erase_fd (r : fout) : fout := match r with OFd _ => OFd 0 | _ => r end.
Definition ref_step_erased (s : fs) (o : fop) : fs * fout :=
  let '(s', r) := ref_step s o in (s', erase_fd r).

Definition fs_lin_check (erased : bool) (ts : list tid) (h : list (@hevent fop fout)) : bool :=
  lin_check (if erased then ref_step_erased else ref_step) fout_eqb ts fs_init h.

Theorem fs_lin_check_correct erased ts h : threads_in ts h ->
  (fs_lin_check erased ts h = true <->
   linearizable (if erased then ref_step_erased else ref_step) fs_init (rev h)).
Proof. apply lin_check_correct. exact fout_eqb_spec. Qed.
