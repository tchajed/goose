(* A decision procedure for linearizability of a recorded history, proved sound
   AND complete, so that both verdicts about a history recorded from the real
   implementation are theorems about that history.

   [lin_from s f h]: the rest [h] of a history (oldest event first) can be
   completed with linearization points from abstract state [s] and per-thread
   status [f].  [go] explores exactly these derivations: before consuming the
   next event it may linearize pending operations; between two events at most
   one linearization per thread is possible, which bounds the inner loop. *)
From Coq Require Import List Arith Lia Bool.
From GV Require Import Conc.Lin.
Import ListNotations.

Section LinCheck.
Context {St Op Res : Type}.
Variable seq : St -> Op -> St * Res.
Variable res_eqb : Res -> Res -> bool.
Hypothesis res_eqb_spec : forall a b, res_eqb a b = true <-> a = b.

Notation lstate := (@lstate Op Res).
Notation hevent := (@hevent Op Res).

Inductive lin_from : St -> (tid -> lstate) -> list hevent -> Prop :=
| lf_nil s f : lin_from s f []
| lf_inv s f t o h : f t = LIdle -> lin_from s (upd f t (LInv o)) h -> lin_from s f (HInv t o :: h)
| lf_resp s f t o r h : f t = LLin o r -> lin_from s (upd f t LIdle) h -> lin_from s f (HResp t r :: h)
| lf_lin s f t o h : f t = LInv o ->
    lin_from (fst (seq s o)) (upd f t (LLin o (snd (seq s o)))) h -> lin_from s f h.

(* ---------------------------------------------------------------- lin_from = linearizable *)
(* traces and histories of Lin.v are newest-first; h here is oldest-first *)
Lemma lin_from_extends s f h : lin_from s f h ->
  forall s0 tau, wf_tr tau f -> legal seq s0 tau s -> linearizable seq s0 (rev h ++ history tau).
Proof.
  induction 1 as [s f|s f t o h Hf Hl IH|s f t o r h Hf Hl IH|s f t o h Hf Hl IH]; intros s0 tau Hwf Hlg.
  - exists tau, f, s. auto.
  - cbn [rev]. rewrite <- app_assoc. apply (IH s0 (EInv t o :: tau)); constructor; auto.
  - cbn [rev]. rewrite <- app_assoc. apply (IH s0 (EResp t r :: tau)); econstructor; eauto.
  - apply (IH s0 (ELin t o (snd (seq s o)) :: tau)); constructor; auto.
Qed.

Theorem lin_from_linearizable s0 h :
  lin_from s0 (fun _ => LIdle) h -> linearizable seq s0 (rev h).
Proof.
  intros H. rewrite <- (app_nil_r (rev h)). exact (lin_from_extends _ _ _ H s0 [] wf_nil (lg_nil seq s0)).
Qed.

(* conversely, a well-formed legal trace gives a derivation *)
Lemma lin_from_of_trace s0 tau f s : wf_tr tau f -> legal seq s0 tau s ->
  forall h, lin_from s f h -> lin_from s0 (fun _ => LIdle) (rev (history tau) ++ h).
Proof.
  intros Hwf. revert s.
  induction Hwf as [|tau f t o Hwf IH Hf|tau f t o r Hwf IH Hf|tau f t o r Hwf IH Hf]; intros s Hlg h Hh;
    apply legal_inv in Hlg; cbn [history rev]; rewrite <- ?app_assoc.
  - subst s. exact Hh.
  - eapply IH; eauto. apply lf_inv; auto.
  - destruct Hlg as (s' & Hlg & -> & ->). eapply IH; eauto. eapply lf_lin; eauto.
  - eapply IH; eauto. eapply lf_resp; eauto.
Qed.

Theorem linearizable_lin_from s0 h :
  linearizable seq s0 (rev h) -> lin_from s0 (fun _ => LIdle) h.
Proof.
  intros (tau & f & s & Hh & Hwf & Hlg).
  pose proof (lin_from_of_trace s0 tau f s Hwf Hlg [] (lf_nil s f)) as H.
  rewrite Hh, rev_involutive, app_nil_r in H. exact H.
Qed.

(* ---------------------------------------------------------------- the checker *)
Variable ts : list tid.     (* the threads that occur in the history *)

Fixpoint go (h : list hevent) : nat -> St -> (tid -> lstate) -> bool :=
  fix loop (k : nat) (s : St) (f : tid -> lstate) {struct k} : bool :=
    match h with
    | [] => true
    | HInv t o :: h' =>
        match f t with LIdle => go h' (length ts) s (upd f t (LInv o)) | _ => false end
    | HResp t r :: h' =>
        match f t with
        | LLin o r' => res_eqb r r' && go h' (length ts) s (upd f t LIdle)
        | _ => false
        end
    end
    || match k with
       | O => false
       | S k' =>
           existsb (fun t => match f t with
                             | LInv o => loop k' (fst (seq s o)) (upd f t (LLin o (snd (seq s o))))
                             | _ => false
                             end) ts
       end.

Definition lin_check (s0 : St) (h : list hevent) : bool := go h (length ts) s0 (fun _ => LIdle).

Lemma go_unfold h k s f :
  go h k s f =
  (match h with
   | [] => true
   | HInv t o :: h' => match f t with LIdle => go h' (length ts) s (upd f t (LInv o)) | _ => false end
   | HResp t r :: h' => match f t with
                        | LLin o r' => res_eqb r r' && go h' (length ts) s (upd f t LIdle)
                        | _ => false end
   end
   || match k with
      | O => false
      | S k' => existsb (fun t => match f t with
                                  | LInv o => go h k' (fst (seq s o)) (upd f t (LLin o (snd (seq s o))))
                                  | _ => false end) ts
      end).
Proof. destruct h as [|[t o|t r] h']; destruct k; reflexivity. Qed.

Theorem go_sound h : forall k s f, go h k s f = true -> lin_from s f h.
Proof.
  induction h as [|e h IH]; [constructor|].
  induction k as [k IHk] using lt_wf_ind. intros s f Hg.
  rewrite go_unfold in Hg. apply orb_prop in Hg as [Hg|Hg].
  - destruct e as [t o|t r].
    + destruct (f t) eqn:Hf; try discriminate. constructor; eauto.
    + destruct (f t) as [|o|o r'] eqn:Hf; try discriminate.
      apply andb_prop in Hg as [He Hg]. apply res_eqb_spec in He as ->. econstructor; eauto.
  - destruct k as [|k]; [discriminate|].
    apply existsb_exists in Hg as (t & _ & Hg).
    destruct (f t) as [|o|o r'] eqn:Hf; try discriminate. eapply lf_lin; eauto.
Qed.

(* Completeness.  The fuel suffices because each linearization takes one thread
   from LInv to LLin and only an event takes it back: [count_inv], the number
   of occurrences in ts of threads in LInv, bounds the linearizations left
   before the next event. *)
Definition is_inv (l : lstate) : bool := match l with LInv _ => true | _ => false end.
Definition count_inv (f : tid -> lstate) : nat := length (filter (fun t => is_inv (f t)) ts).

Lemma count_inv_le f : count_inv f <= length ts.
Proof.
  unfold count_inv. induction ts as [|x xs IH]; [apply Nat.le_refl|].
  cbn [filter]. destruct (is_inv (f x)); cbn [length]; [apply le_n_S|apply Nat.le_le_succ_r]; exact IH.
Qed.

Lemma count_inv_lin f t o r : f t = LInv o ->
  count_inv (upd f t (LLin o r)) <= count_inv f /\
  (In t ts -> count_inv (upd f t (LLin o r)) < count_inv f).
Proof.
  intros Hf. unfold count_inv.
  induction ts as [|x xs [IHle IHlt]]; [split; [apply Nat.le_refl|intros []]|].
  cbn [filter]. destruct (Nat.eq_dec x t) as [->|Hne].
  - rewrite upd_same, Hf. cbn [is_inv length].
    split; [apply Nat.le_le_succ_r|intros _; apply Nat.lt_succ_r]; exact IHle.
  - rewrite upd_other by exact Hne. destruct (is_inv (f x)); cbn [length].
    + split; [apply le_n_S, IHle|]. intros [E|Hin]; [congruence|].
      apply -> Nat.succ_lt_mono. exact (IHlt Hin).
    + split; [exact IHle|]. intros [E|Hin]; [congruence|exact (IHlt Hin)].
Qed.

Definition threads_in (h : list hevent) : Prop :=
  forall e, In e h -> In (match e with HInv t _ | HResp t _ => t end) ts.

Lemma threads_in_cons e h : threads_in (e :: h) ->
  In (match e with HInv t _ | HResp t _ => t end) ts /\ threads_in h.
Proof. intros H. split; [apply H; now left|]. intros e' He'. apply H. now right. Qed.

(* the invariant of the search: every thread with an operation outstanding is in ts *)
Definition known (f : tid -> lstate) : Prop := forall t, f t <> LIdle -> In t ts.

Lemma known_upd f t l : In t ts -> known f -> known (upd f t l).
Proof. intros Hin Hf t'. unfold upd. destruct (Nat.eq_dec t' t) as [->|]; auto. Qed.

Theorem go_complete s f h : lin_from s f h -> threads_in h -> known f ->
  forall k, count_inv f <= k -> go h k s f = true.
Proof.
  induction 1 as [s f|s f t o h Hf Hl IH|s f t o r h Hf Hl IH|s f t o h Hf Hl IH]; intros Hth Hts k Hk;
    rewrite go_unfold.
  - reflexivity.
  - apply threads_in_cons in Hth as [Hin Hth].
    rewrite Hf, IH; auto using known_upd, count_inv_le.
  - apply threads_in_cons in Hth as [Hin Hth].
    rewrite Hf, (proj2 (res_eqb_spec r r) eq_refl), IH; auto using known_upd, count_inv_le.
  - assert (Hin : In t ts) by (apply Hts; congruence).
    pose proof (proj2 (count_inv_lin f t o (snd (seq s o)) Hf) Hin) as Hlt.
    destruct k as [|k]; [lia|].
    apply orb_true_iff. right. apply existsb_exists. exists t. split; [exact Hin|].
    rewrite Hf. apply IH; auto using known_upd. lia.
Qed.

Theorem lin_check_correct s0 h : threads_in h ->
  (lin_check s0 h = true <-> linearizable seq s0 (rev h)).
Proof.
  intros Hth. split.
  - intros H. apply lin_from_linearizable. eapply go_sound. exact H.
  - intros H. apply linearizable_lin_from in H. unfold lin_check.
    eapply go_complete; eauto.
    + intros t Ht. contradiction.
    + apply count_inv_le.
Qed.

End LinCheck.

(* For results that hold lists: a test on lists that satisfies the equations of
   pointwise comparison decides equality when the test on elements does. *)
Lemma list_eqb_spec {A} (eqb : A -> A -> bool) (leqb : list A -> list A -> bool) :
  (forall x y, eqb x y = true <-> x = y) ->
  (forall a b, leqb a b = match a, b with
                          | [], [] => true
                          | x :: a', y :: b' => eqb x y && leqb a' b'
                          | _, _ => false
                          end) ->
  forall a b, leqb a b = true <-> a = b.
Proof.
  intros He Hl. induction a as [|x a IH]; intros [|y b]; rewrite Hl; try (split; discriminate).
  - split; reflexivity.
  - rewrite andb_true_iff, He, IH. split; [intros [-> ->]; reflexivity|intros E; injection E; auto].
Qed.
