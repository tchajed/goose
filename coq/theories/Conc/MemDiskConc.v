(* MemDisk (machine/disk/mem.go) as a single-lock object.

   Lock modes and critical sections mirror the code (checked per run on the
   regenerated skeletons, Oblig/O10.v):
     ReadTo/Read : d.l.RLock(); defer RUnlock(); bounds check; copy(buf, d.blocks[a][:])
     Write       : length check (before the lock); d.l.Lock(); defer Unlock(); bounds check; copy(d.blocks[a][:], v)
     Size        : no lock (len(d.blocks) never changes)
     Barrier     : no-op
   A block copy is modelled as one micro-step per byte, so torn blocks are
   expressible. *)
From Coq Require Import List ZArith Lia Bool.
From GV Require Import Disk.Disk Disk.DiskProofs Conc.Lin Conc.SingleLock.
Import ListNotations.
Open Scope Z_scope.

Section MemDiskConc.
Variable bs : nat.
Variable n : Z.
Hypothesis n_nonneg : 0 <= n.

Definition in_rng (a : Z) : bool := negb (n <=? a).    (* !(a >= uint64(len(d.blocks))) *)

Definition md (o : op) : mode :=
  match o with
  | ORead _ | OReadTo _ _ => MR
  | OWrite _ v => if Nat.eqb (length v) bs then MW else MFree
  | OSize | OBarrier => MFree
  end.

Definition rd_step (a i : nat) : @mstep mem block :=
  fun s l => (s, set_nth l i (nth i (nth a s []) 0)).
Definition wr_step (a : nat) (v : block) (i : nat) : @mstep mem block :=
  fun s l => (set_nth s a (set_nth (nth a s []) i (nth i v 0)), l).

Definition prog (o : op) : list (@mstep mem block) :=
  match o with
  | ORead a => if in_rng a then map (rd_step (Z.to_nat a)) (seq 0 bs) else []
  | OReadTo a buf => if in_rng a then map (rd_step (Z.to_nat a)) (seq 0 (Nat.min (length buf) bs)) else []
  | OWrite a v => if Nat.eqb (length v) bs
                  then if in_rng a then map (wr_step (Z.to_nat a) v) (seq 0 bs) else []
                  else []
  | OSize | OBarrier => []
  end.

Definition init (o : op) : block :=
  match o with ORead _ => zeros bs | OReadTo _ buf => buf | _ => [] end.

Definition result (o : op) (l : block) : out :=
  match o with
  | ORead a | OReadTo a _ => if in_rng a then RBlock l else RRefused
  | OWrite a v => if Nat.eqb (length v) bs && in_rng a then RUnit else RRefused
  | OSize => RSize n
  | OBarrier => RUnit
  end.

Lemma rd_steps_pure a is : Forall pure (map (rd_step a) is).
Proof. apply Forall_map, Forall_forall. intros i _ s l. reflexivity. Qed.

Lemma reader_pure : forall o, md o = MR -> Forall pure (prog o).
Proof.
  intros o Hm. destruct o as [a|a buf|a v| |]; cbn [md prog] in *; try discriminate.
  - destruct (in_rng a); [apply rd_steps_pure|constructor].
  - destruct (in_rng a); [apply rd_steps_pure|constructor].
  - destruct (Nat.eqb (length v) bs); discriminate.
Qed.

Lemma free_prog : forall o, md o = MFree -> prog o = [].
Proof.
  intros o Hm. destruct o as [a|a buf|a v| |]; cbn [md prog] in *; try discriminate; try reflexivity.
  destruct (Nat.eqb (length v) bs); [discriminate|reflexivity].
Qed.

(* ------------------------------------------------------------ byte-wise copies are block copies *)
(* Copying bytes 0..k-1 one at a time leaves the first k bytes of the source
   followed by the rest of the destination: the shape of [copy_into]. *)
Definition bcopy (src : block) (is : list nat) (dst : block) : block :=
  fold_left (fun d i => set_nth d i (nth i src 0)) is dst.

Lemma set_nth_prefix (src dst : block) k : (k < length src)%nat -> (k < length dst)%nat ->
  set_nth (firstn k src ++ skipn k dst) k (nth k src 0) = firstn (S k) src ++ skipn (S k) dst.
Proof.
  revert src dst; induction k as [|k IH]; intros [|x src] [|y dst] Hs Hd; simpl in *; try lia; [reflexivity|].
  f_equal. apply IH; lia.
Qed.

Lemma bcopy_prefix src k : forall dst, (k <= length src)%nat -> (k <= length dst)%nat ->
  bcopy src (seq 0 k) dst = firstn k src ++ skipn k dst.
Proof.
  unfold bcopy. induction k as [|k IH]; intros dst Hs Hd; [reflexivity|].
  rewrite seq_S, fold_left_app, IH by lia. apply set_nth_prefix; lia.
Qed.

Lemma bcopy_full src dst : length src = bs -> length dst = bs -> bcopy src (seq 0 bs) dst = src.
Proof.
  intros Hs Hd. rewrite bcopy_prefix, firstn_all2, skipn_all2 by lia. apply app_nil_r.
Qed.

Lemma set_nth_same {A} (l : list A) i d : (i < length l)%nat -> set_nth l i (nth i l d) = l.
Proof. revert i; induction l as [|x l IH]; intros [|i] H; simpl in *; try lia; auto. f_equal. apply IH. lia. Qed.

Lemma set_nth_twice {A} (l : list A) i x y : set_nth (set_nth l i x) i y = set_nth l i y.
Proof. revert i; induction l as [|h l IH]; intros [|i]; simpl; auto. f_equal. apply IH. Qed.

(* a reader copies block a into its buffer, a writer its argument into block a *)
Lemma rd_exec a s is : forall l, exec (map (rd_step a) is) s l = (s, bcopy (nth a s []) is l).
Proof. induction is as [|i is IH]; intros l; [reflexivity|]. apply IH. Qed.

Lemma wr_exec a v l is : forall s, (a < length s)%nat ->
  exec (map (wr_step a v) is) s l = (set_nth s a (bcopy v is (nth a s [])), l).
Proof.
  induction is as [|i is IH]; intros s Ha; cbn [map exec wr_step bcopy fold_left].
  - now rewrite set_nth_same.
  - rewrite IH by now rewrite set_nth_length.
    rewrite nth_set_nth_eq by exact Ha. now rewrite set_nth_twice.
Qed.

(* ------------------------------------------------------------ the sequential object is MemDisk's model *)
Lemma atomic_is_mem_step s r o : Rmem bs s r -> size r = n -> op_ok bs o ->
  atomic prog init result o s = mem_step bs s o.
Proof.
  intros HR Hn [Ha Hbuf]. pose proof HR as (Hsz & _). rewrite Hn in Hsz. unfold atomic, in_rng.
  assert (Hblk : forall a, 0 <= a < n ->
            length (nth (Z.to_nat a) s []) = bs /\ (Z.to_nat a < length s)%nat).
  { intros a Hr. rewrite <- Hn in Hr. destruct (Rmem_block bs s r a HR Hr) as (-> & ? & ?). auto. }
  destruct o as [a|a buf|a v| |]; cbn [prog init result mem_step addr_ok] in *; unfold in_rng;
    rewrite <- ?Hsz.
  - destruct (Z.leb_spec n a) as [Hge|Hlt]; cbn [negb exec]; [reflexivity|].
    destruct (Hblk a ltac:(lia)) as [Hb _].
    rewrite rd_exec, bcopy_full, copy_into_same_length by (rewrite ?zeros_length; congruence).
    reflexivity.
  - destruct (Z.leb_spec n a) as [Hge|Hlt]; cbn [negb exec]; [reflexivity|].
    destruct (Hblk a ltac:(lia)) as [Hb _].
    rewrite Hbuf, Nat.min_id, rd_exec, bcopy_full, copy_into_same_length by congruence.
    reflexivity.
  - destruct (Nat.eqb_spec (length v) bs) as [Hv|Hv]; cbn [negb andb exec]; [|reflexivity].
    destruct (Z.leb_spec n a) as [Hge|Hlt]; cbn [negb exec]; [reflexivity|].
    destruct (Hblk a ltac:(lia)) as [Hb Hlen].
    rewrite wr_exec, bcopy_full, copy_into_same_length by (assumption || congruence).
    reflexivity.
  - reflexivity.
  - reflexivity.
Qed.

Definition Rconc (s1 : mem) (s2 : regs) : Prop := Rmem bs s1 s2 /\ size s2 = n.

Lemma conc_sim s1 s2 o : Rconc s1 s2 -> op_ok bs o ->
  snd (seq_atomic prog init result s1 o) = snd (regs_step bs s2 o) /\
  Rconc (fst (seq_atomic prog init result s1 o)) (fst (regs_step bs s2 o)).
Proof.
  intros [HR Hn] Hok. unfold seq_atomic. rewrite (atomic_is_mem_step s1 s2) by assumption.
  destruct (mem_sim bs s1 s2 o HR Hok) as [E HR']. split; [exact E|]. split; [exact HR'|].
  now rewrite regs_step_size.
Qed.

(* MemDisk: whatever the clients do and however the
   micro-steps interleave, the observable history is linearizable with respect
   to the register-array specification. *)
Theorem memdisk_linearizable c :
  reachable md prog init result (mem_init bs n) c ->
  (forall t o, In (HInv t o) (history (tr c)) -> op_ok bs o) ->
  linearizable (regs_step bs) (regs_init bs n) (history (tr c)).
Proof.
  intros Hreach Hok.
  eapply (linearizable_transfer (seq_atomic prog init result) (regs_step bs) Rconc (op_ok bs)).
  - intros; now apply conc_sim.
  - split; [apply Rmem_init; exact n_nonneg|reflexivity].
  - exact Hok.
  - apply (single_lock_linearizable md prog init result reader_pure free_prog). exact Hreach.
Qed.

End MemDiskConc.
