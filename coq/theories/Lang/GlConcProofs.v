(* The explorer reports only real behaviours: every value it lists as the
   result of the main thread is reached by an explicit schedule of the machine
   (explore_done_sound).  What the lock primitives do on a lock cell. *)
From Coq Require Import List.
From GV Require Import Lang.GlSyntax Lang.GlSem Lang.GlSemProofs Lang.GlConc.
Import ListNotations.
Local Open Scope nat_scope.

(* a schedule: which thread takes its next visible step, or the forced wake-up
   of the waiting threads when nobody else can move *)
Inductive act := AStep (i : nat) | AWake.

Fixpoint run_acts (lfuel : nat) (acts : list act) (pool : list thread) (s : state) : option (list thread * state) :=
  match acts with
  | [] => Some (pool, s)
  | AStep i :: acts' =>
      match sched_step lfuel pool s i with
      | Some (pool', s', _) => run_acts lfuel acts' pool' s'
      | None => None
      end
  | AWake :: acts' => run_acts lfuel acts' (wake pool) s
  end.

Lemma in_add_outcome x o l : In x (add_outcome o l) -> x = o \/ In x l.
Proof.
  induction l as [|y l IH]; cbn.
  - intros [<-|[]]. auto.
  - destruct (outcome_eqb o y); cbn; [auto|]. intros [<-|H]; [auto|]. destruct (IH H); auto.
Qed.

Lemma in_union x a b : In x (union a b) -> In x a \/ In x b.
Proof.
  unfold union. revert a; induction b as [|o b IH]; cbn; intros a H; [auto|].
  destruct (IH _ H) as [H1|H1]; [|auto]. destruct (in_add_outcome _ _ _ H1) as [->|H2]; auto.
Qed.

Lemma in_fold_union {X} (f : X -> list outcome) x : forall l acc,
  In x (fold_left (fun acc p => union acc (f p)) l acc) -> In x acc \/ exists p, In p l /\ In x (f p).
Proof.
  induction l as [|p l IH]; cbn; intros acc H; [auto|].
  destruct (IH _ H) as [H1|(q & Hq & Hx)].
  - destruct (in_union _ _ _ H1) as [H2|H2]; [auto|]. right. exists p. auto.
  - right. exists q. auto.
Qed.

Lemma in_nexts lfuel pool s ps :
  In ps (nexts_of lfuel pool s) -> exists i, sched_step lfuel pool s i = Some ps.
Proof.
  unfold nexts_of. intros H. apply in_flat_map in H as (i & _ & Hi).
  destruct (sched_step lfuel pool s i) as [q|] eqn:E; [|destruct Hi]. destruct Hi as [<-|[]]. eauto.
Qed.

Lemma run_acts_app {lfuel acts1} acts2 {pool s pool1 s1} :
  run_acts lfuel acts1 pool s = Some (pool1, s1) ->
  run_acts lfuel (acts1 ++ acts2) pool s = run_acts lfuel acts2 pool1 s1.
Proof.
  revert pool s. induction acts1 as [|a acts1 IH]; intros pool s H; cbn [app run_acts] in *.
  - injection H as -> ->. reflexivity.
  - destruct a as [i|]; [|exact (IH _ _ H)].
    destruct (sched_step lfuel pool s i) as [[[p2 s2] b2]|]; [exact (IH _ _ H)|discriminate].
Qed.

(* the main thread of a pool finished with v *)
Definition main_done (lfuel : nat) (pool : list thread) (s : state) (v : val) : Prop :=
  exists t rest, pool = t :: rest /\ advance lfuel (fst t) s = MDone v.

Theorem explore_done_sound : forall fuel lfuel stale pool s v,
  In (ODone v) (explore fuel lfuel stale pool s) ->
  exists acts pool' s', run_acts lfuel acts pool s = Some (pool', s') /\ main_done lfuel pool' s' v.
Proof.
  induction fuel as [|f IH]; intros lfuel stale pool s v Hin; [destruct Hin as [H|[]]; discriminate|].
  cbn [explore] in Hin.
  (* the explorer goes on from successors that some actions reach: prepend those actions *)
  assert (Hrec : forall st (nexts : list (list thread * state * bool)),
            (forall ps, In ps nexts -> exists acts0, run_acts lfuel acts0 pool s = Some (fst ps)) ->
            In (ODone v) (fold_left (fun (acc : list outcome) (ps : list thread * state * bool) =>
                                       union acc (explore f lfuel (if snd ps then 0 else st) (fst (fst ps)) (snd (fst ps)))) nexts []) ->
            exists acts pool' s', run_acts lfuel acts pool s = Some (pool', s') /\ main_done lfuel pool' s' v).
  { intros st nexts Hn H.
    apply (in_fold_union (fun ps : list thread * state * bool => explore f lfuel (if snd ps then 0 else st) (fst (fst ps)) (snd (fst ps)))) in H
      as [[]|(ps & Hps & Hx)].
    destruct (IH _ _ _ _ _ Hx) as (acts & pool' & s' & Hr & Hd).
    destruct (Hn ps Hps) as (acts0 & H0). destruct ps as [[p1 s1] b].
    exists (acts0 ++ acts)%list, pool', s'. split; [|exact Hd]. rewrite (run_acts_app _ H0). exact Hr. }
  (* what the explorer does when the main thread is not done, whatever the moves are *)
  set (rest := match flat_map _ (classify lfuel pool s) with [] => _ | _ :: _ => _ end) in Hin.
  assert (Hrest : In (ODone v) rest ->
            exists acts pool' s', run_acts lfuel acts pool s = Some (pool', s') /\ main_done lfuel pool' s' v).
  { subst rest. clear Hin. intros Hin.
    destruct (flat_map _ (classify lfuel pool s)) as [|w ws]; [|destruct Hin as [H|[]]; discriminate].
    destruct (existsb _ (classify lfuel pool s)); [destruct Hin as [H|[]]; discriminate|].
    destruct (nexts_of lfuel pool s) as [|n0 ns] eqn:En.
    - (* nobody can move: the waiting threads are woken *)
      destruct (existsb (fun t => snd t) pool); [|destruct Hin as [H|[]]; discriminate].
      destruct (Nat.ltb 1 stale); [destruct Hin as [H|[]]; discriminate|].
      destruct (nexts_of lfuel (wake pool) s) as [|n1 ns1] eqn:En1; [destruct Hin as [H|[]]; discriminate|].
      eapply Hrec; [|exact Hin]. intros ps Hps. rewrite <- En1 in Hps. apply in_nexts in Hps as (i & Hi).
      exists [AWake; AStep i]. cbn [run_acts]. rewrite Hi. destruct ps as [[? ?] ?]. reflexivity.
    - eapply Hrec; [|exact Hin]. intros ps Hps. rewrite <- En in Hps. apply in_nexts in Hps as (i & Hi).
      exists [AStep i]. cbn [run_acts]. rewrite Hi. destruct ps as [[? ?] ?]. reflexivity. }
  destruct (classify lfuel pool s) as [|[v0|e' s' fk y pr| |w|] ms] eqn:Ec; [exact (Hrest Hin)| |exact (Hrest Hin)..].
  (* the main thread is done *)
  destruct Hin as [[= <-]|[]]. exists [], pool, s. split; [reflexivity|].
  destruct pool as [|t rest0]; [discriminate|]. cbn in Ec. injection Ec as Ec _. exists t, rest0. auto.
Qed.

Lemma sched_step_range lfuel pool s i ps : sched_step lfuel pool s i = Some ps -> i < length pool.
Proof.
  unfold sched_step. destruct (nth_error pool i) eqn:E; [|discriminate]. intros _.
  apply nth_error_Some. congruence.
Qed.

(* ---------------------------------------------------------------- locks *)
Definition read_lock (b : nat) (s : state) : option bool :=
  match nth_error (heap s) b with
  | Some (BCells [LitV (LitBool x)]) => Some x
  | _ => None
  end.

(* a lock is a block of one cell holding a boolean *)
Lemma read_lock_cell b s x : read_lock b s = Some x <-> nth_error (heap s) b = Some (BCells [vbool x]).
Proof.
  unfold read_lock. split; [|intros ->; reflexivity].
  destruct (nth_error (heap s) b) as [[[|[[| | |y| | | |]| | |] [|? ?]]|]|]; try discriminate.
  intros [= ->]. reflexivity.
Qed.

Lemma load_lock b s x : read_lock b s = Some x -> load boolT (LitV (LitLoc b 0)) s = Some (vbool x).
Proof. intros H. apply read_lock_cell in H. exact (load_cell boolT b s _ eq_refl H). Qed.

Lemma store_lock b s x y : read_lock b s = Some x ->
  exists s', store boolT (LitV (LitLoc b 0)) (vbool y) s = Some s' /\ read_lock b s' = Some y.
Proof.
  intros H. apply read_lock_cell in H. eexists. split; [exact (store_cell boolT b s _ _ eq_refl H)|].
  apply read_lock_cell, nth_error_set_block. congruence.
Qed.

Lemma lock_semantics b s :
  (read_lock b s = Some false -> exists s', exec_prim PLockAcquire [LitV (LitLoc b 0)] s = RVal (LitV LitUnit) s' /\ read_lock b s' = Some true) /\
  (read_lock b s = Some true -> exec_prim PLockAcquire [LitV (LitLoc b 0)] s = RFuel) /\
  (read_lock b s = Some true -> exists s', exec_prim PLockRelease [LitV (LitLoc b 0)] s = RVal (LitV LitUnit) s' /\ read_lock b s' = Some false) /\
  (read_lock b s = Some false -> exists w, exec_prim PLockRelease [LitV (LitLoc b 0)] s = RStuck w).
Proof.
  repeat split; intros H; cbn [exec_prim]; rewrite (load_lock b s _ H); cbn [vbool].
  - destruct (store_lock b s _ true H) as (s' & -> & H'). exists s'. split; [reflexivity|exact H'].
  - reflexivity.
  - destruct (store_lock b s _ false H) as (s' & -> & H'). exists s'. split; [reflexivity|exact H'].
  - eexists. reflexivity.
Qed.
