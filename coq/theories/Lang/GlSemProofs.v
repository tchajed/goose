(* Facts about the reference interpreter alone.  It is monotone in its fuel: a
   result other than "out of fuel" is the result for every larger fuel, so the
   meaning of a program does not depend on the fuel it is run with.  An
   evaluation of an expression with a hole first evaluates the hole.  Typed
   loads and stores on a block of one cell. *)
From Coq Require Import String List ZArith Lia.
From GV Require Import Lang.GlSyntax Lang.GlSem.
Import ListNotations.
Local Open Scope nat_scope.

Lemma eval_S_unfold n e s : eval (S n) e s = eval_step (eval n) e s.
Proof. reflexivity. Qed.

Lemma eval_val_S n v s : eval (S n) (Val v) s = RVal v s.
Proof. reflexivity. Qed.

(* ---------------------------------------------------------------- sequencing *)
(* eval_step sequences its recursive calls by matches of this form (its
   matches are convertible with rbind, so the lemmas below apply to them) *)
Definition rbind (r : res) (k : val -> state -> res) : res :=
  match r with RVal v s => k v s | RStuck w => RStuck w | RFuel => RFuel end.

Lemma rbind_val r k w s1 : rbind r k = RVal w s1 -> exists v sa, r = RVal v sa /\ k v sa = RVal w s1.
Proof. destruct r as [v sa| |]; try discriminate. eauto. Qed.

(* ---------------------------------------------------------------- fuel *)
Definition le_res (r r' : res) : Prop := r <> RFuel -> r' = r.

Definition below (f g : expr -> state -> res) : Prop := forall e s, le_res (f e s) (g e s).

Lemma le_res_refl r : le_res r r.
Proof. intros _. reflexivity. Qed.

Lemma rbind_mono r r' k k' :
  le_res r r' -> (forall v s, le_res (k v s) (k' v s)) -> le_res (rbind r k) (rbind r' k').
Proof.
  intros Hr Hk. destruct r as [v s|w|].
  - rewrite Hr by discriminate. apply Hk.
  - rewrite Hr by discriminate. apply le_res_refl.
  - intros N. contradiction N. reflexivity.
Qed.

Lemma eval_step_mono f g : below f g -> below (eval_step f) (eval_step g).
Proof.
  intros Hfg e s. destruct e; cbn [eval_step]; try apply le_res_refl.
  - (* App *)
    apply rbind_mono; [apply Hfg|intros v2 s1]. apply rbind_mono; [apply Hfg|intros v1 s2].
    destruct v1 as [|fb xb body| |p args]; try apply le_res_refl; [apply Hfg|].
    cbv zeta. destruct (Nat.ltb _ _); [apply le_res_refl|].
    destruct (is_loop p); [|apply le_res_refl].
    destruct (expand_loop p (args ++ [v2]) s2); [apply Hfg|apply le_res_refl].
  - apply rbind_mono; [apply Hfg|intros; apply le_res_refl].
  - apply rbind_mono; [apply Hfg|intros v2 s1]. apply rbind_mono; [apply Hfg|intros; apply le_res_refl].
  - (* If *)
    apply rbind_mono; [apply Hfg|intros [[| | |[|]| | | |]| | |] s1]; try apply le_res_refl; apply Hfg.
  - apply rbind_mono; [apply Hfg|intros v2 s1]. apply rbind_mono; [apply Hfg|intros; apply le_res_refl].
  - apply rbind_mono; [apply Hfg|intros [| |a b|] s1]; apply le_res_refl.
  - apply rbind_mono; [apply Hfg|intros [| |a b|] s1]; apply le_res_refl.
  - apply rbind_mono; [apply Hfg|intros; apply le_res_refl].
Qed.

Lemma eval_mono {n e s r} m : eval n e s = r -> r <> RFuel -> n <= m -> eval m e s = r.
Proof.
  intros <- N Hle. assert (H : below (eval n) (eval m)); [|exact (H e s N)].
  clear e s N. revert m Hle. induction n as [|n IH]; intros m Hle.
  - intros e s N. contradiction N. reflexivity.
  - destruct m as [|m]; [lia|]. apply eval_step_mono, IH. lia.
Qed.

Lemma eval_fuel_irrelevant n m e s r1 r2 :
  eval n e s = r1 -> eval m e s = r2 -> r1 <> RFuel -> r2 <> RFuel -> r1 = r2.
Proof.
  intros H1 H2 N1 N2.
  pose proof (eval_mono (n + m) H1 N1 ltac:(lia)) as A.
  pose proof (eval_mono (n + m) H2 N2 ltac:(lia)) as B.
  congruence.
Qed.

(* ---------------------------------------------------------------- evaluation contexts *)
(* one constructor with a hole where evaluation goes next: the operands to the
   right of the hole are values already *)
Inductive frame :=
| FAppR (e1 : expr) | FAppL (v2 : val)
| FUnOp (op : un_op)
| FBinR (op : bin_op) (e1 : expr) | FBinL (op : bin_op) (v2 : val)
| FIf (e1 e2 : expr)
| FPairR (e1 : expr) | FPairL (v2 : val)
| FFst | FSnd.

Definition fill (f : frame) (e : expr) : expr :=
  match f with
  | FAppR e1 => App e1 e
  | FAppL v2 => App e (Val v2)
  | FUnOp op => UnOp op e
  | FBinR op e1 => BinOp op e1 e
  | FBinL op v2 => BinOp op e (Val v2)
  | FIf e1 e2 => If e e1 e2
  | FPairR e1 => Pair e1 e
  | FPairL v2 => Pair e (Val v2)
  | FFst => Fst e
  | FSnd => Snd e
  end.

Lemma eval_fill f n e s :
  eval (S n) (fill f e) s = rbind (eval n e s) (fun v sa => eval (S n) (fill f (Val v)) sa).
Proof.
  (* eval n (Val v) on the right computes only once n is 0 or a successor *)
  destruct n as [|n]; destruct f; reflexivity.
Qed.

(* Induction along the evaluation order (right operand first): an expression
   is a frame around the operand evaluated next, which is not a value yet and
   with whose value the frame goes on, or the operands it evaluates are all
   values. *)
Lemma expr_frame_ind (P : expr -> Prop) :
  (forall f e, (forall v, e <> Val v) -> P e -> (forall v, P (fill f (Val v))) -> P (fill f e)) ->
  (forall v, P (Val v)) -> (forall x, P (Var x)) -> (forall fb xb b, P (Rec fb xb b)) ->
  (forall v1 v2, P (App (Val v1) (Val v2))) ->
  (forall op v, P (UnOp op (Val v))) ->
  (forall op v1 v2, P (BinOp op (Val v1) (Val v2))) ->
  (forall v e1 e2, P (If (Val v) e1 e2)) ->
  (forall v1 v2, P (Pair (Val v1) (Val v2))) ->
  (forall v, P (Fst (Val v))) -> (forall v, P (Snd (Val v))) ->
  (forall c, P (Fork c)) ->
  forall e, P e.
Proof.
  intros Hfill HVal HVar HRec HApp HUnOp HBinOp HIf HPair HFst HSnd HFork.
  assert (Hin : forall f e, P e -> (forall v, P (fill f (Val v))) -> P (fill f e)).
  { intros f e He Hv. destruct e; try (apply Hfill; [discriminate|assumption..]). apply Hv. }
  induction e as [v|x|fb xb b|e1 IH1 e2 IH2|op e1 IH1|op e1 IH1 e2 IH2|e0 IH0 e1 _ e2 _|e1 IH1 e2 IH2|e1 IH1|e1 IH1|c _]; auto.
  - apply (Hin (FAppR e1)); [exact IH2|intros v2]. apply (Hin (FAppL v2)); [exact IH1|intros v1]. apply HApp.
  - apply (Hin (FUnOp op)); [exact IH1|intros v1]. apply HUnOp.
  - apply (Hin (FBinR op e1)); [exact IH2|intros v2]. apply (Hin (FBinL op v2)); [exact IH1|intros v1]. apply HBinOp.
  - apply (Hin (FIf e1 e2)); [exact IH0|intros v0]. apply HIf.
  - apply (Hin (FPairR e1)); [exact IH2|intros v2]. apply (Hin (FPairL v2)); [exact IH1|intros v1]. apply HPair.
  - apply (Hin FFst); [exact IH1|intros v1]. apply HFst.
  - apply (Hin FSnd); [exact IH1|intros v1]. apply HSnd.
Qed.

Lemma eval_app_rec n fb xb body va s :
  eval (S (S n)) (App (Val (RecV fb xb body)) (Val va)) s =
  eval (S n) (subst' xb va (subst' fb (RecV fb xb body) body)) s.
Proof. reflexivity. Qed.

Lemma eval_app_prim n p args va s :
  eval (S (S n)) (App (Val (PrimV p args)) (Val va)) s =
  if Nat.ltb (length (args ++ [va])) (arity p) then RVal (PrimV p (args ++ [va])) s
  else if is_loop p then
    match expand_loop p (args ++ [va]) s with
    | Some e' => eval (S n) e' s
    | None => RStuck "loop applied to unexpected arguments"
    end
  else exec_prim p (args ++ [va]) s.
Proof. reflexivity. Qed.

(* ---------------------------------------------------------------- memory *)
Lemma nth_error_set_nth {A} (l : list A) i j x :
  nth_error (set_nth l i x) j = if Nat.eqb i j then (match nth_error l j with Some _ => Some x | None => None end) else nth_error l j.
Proof.
  revert i j; induction l as [|a l IH]; intros [|i] [|j]; cbn [set_nth nth_error Nat.eqb]; auto.
  all: try (destruct (Nat.eqb _ _); reflexivity).
Qed.

Lemma nth_error_set_block b bl s : nth_error (heap s) b <> None -> nth_error (heap (set_block b bl s)) b = Some bl.
Proof.
  intros H. cbn [set_block heap]. rewrite nth_error_set_nth, Nat.eqb_refl.
  destruct (nth_error (heap s) b); [reflexivity|contradiction].
Qed.

(* the types read and written as one cell *)
Definition scalar (t : ty) : bool :=
  match t with unitT | prodT _ _ | sliceT _ => false | _ => true end.

Lemma load_cell t b s v : scalar t = true ->
  nth_error (heap s) b = Some (BCells [v]) -> load t (LitV (LitLoc b 0)) s = Some v.
Proof. intros Ht H. unfold load, read_cells. rewrite H. destruct t; try discriminate; reflexivity. Qed.

Lemma store_cell t b s v w : scalar t = true ->
  nth_error (heap s) b = Some (BCells [v]) -> store t (LitV (LitLoc b 0)) w s = Some (set_block b (BCells [w]) s).
Proof. intros Ht H. unfold store, write_cells. rewrite H. destruct t; try discriminate; reflexivity. Qed.
