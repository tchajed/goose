(* The machine of GlConc.v, run on one thread, computes nothing the sequential
   reference semantics (GlSem.eval) does not: every value and final state a
   run of step1 reaches — with forked children run to completion at the fork
   point, the schedule eval itself uses — is the result of eval.  The concurrent
   semantics used for C03 is thereby tied, for all programs, to the sequential
   one that C01/C02 use and that the upstream semantics suite validates.

   Both directions go by induction along the evaluation order
   (GlSemProofs.expr_frame_ind).  On a frame around an expression that is not a
   value, step1g is the step of that expression, put back into the frame
   (step1g_fill), and evaluations and runs both decompose along frames
   (fill_decompose/fill_compose, runs_fill); on a frame around values step1g is
   computed by unfolding. *)
From Coq Require Import String List ZArith Bool Lia.
From GV Require Import Lang.GlSyntax Lang.GlSem Lang.GlSemProofs Lang.GlConc Tr.MiniGoProofs.
Import ListNotations.
Local Open Scope nat_scope.

(* run the machine on one expression; a forked child is run first, to completion.
   ap performs the application of two values (apply_step for the machine itself) *)
Fixpoint mrung (ap : val -> val -> state -> sres) (k : nat) (e : expr) (s : state) : option (val * state) :=
  match k with
  | O => None
  | S k' =>
      match step1g ap e s with
      | SVal v => Some (v, s)
      | SPure e' => mrung ap k' e' s
      | SMem e' s' _ => mrung ap k' e' s'
      | SFork e' c => match mrung ap k' c s with Some (_, s1) => mrung ap k' e' s1 | None => None end
      | SYield _ _ | SBlocked | SStuck _ => None
      end
  end.

Definition mrun : nat -> expr -> state -> option (val * state) := mrung apply_step.

(* ---------------------------------------------------------------- the application of two values *)
(* what a step may do if evaluation is to be preserved *)
Definition step_ok (e : expr) (s : state) (r : sres) : Prop :=
  match r with
  | SPure e' => sim2 e s e' s
  | SMem e' s' _ => sim2 e s e' s'
  | SFork e' c => forall w sc, evals c s w sc -> sim2 e s e' sc
  | SVal _ | SYield _ _ | SBlocked | SStuck _ => True
  end.

(* a step that does not go on on this thread *)
Definition halts (r : sres) : Prop :=
  match r with SYield _ _ | SBlocked | SStuck _ => True | _ => False end.

Lemma halts_ok e s r : halts r -> step_ok e s r.
Proof. destruct r; try contradiction; intros _; exact I. Qed.

Lemma halts_not_val r v : halts r -> r <> SVal v.
Proof. destruct r; try contradiction; discriminate. Qed.

(* The sequential semantics treats a wait on a condition variable as a no-op
   (GlSem.exec_prim); the machine releases the lock, lets the other threads
   move, and re-acquires it.  apply_seq is apply_step with exactly that
   difference removed: a fully applied condWait / condWaitTimeout is executed
   by exec_prim like every other library function.  Over apply_seq the machine
   and the evaluator agree in both directions. *)
Definition waits (p : prim) : bool :=
  match p with PCondWait | PCondWaitTimeout => true | _ => false end.

Definition prim_step (p : prim) (args' : list val) (s : state) : sres :=
  match exec_prim p args' s with
  | RVal v s' => SMem (Val v) s' (is_progress p)
  | RStuck w => SStuck w
  | RFuel => SBlocked
  end.

Definition apply_seq (vf va : val) (s : state) : sres :=
  match vf with
  | PrimV p args =>
      if waits p && negb (Nat.ltb (length (args ++ [va])) (arity p))
      then prim_step p (args ++ [va])%list s
      else apply_step vf va s
  | _ => apply_step vf va s
  end.

Definition step1s : expr -> state -> sres := step1g apply_seq.
Definition mrun_seq : nat -> expr -> state -> option (val * state) := mrung apply_seq.

Lemma waits_inv p : waits p = true -> p = PCondWait \/ p = PCondWaitTimeout.
Proof. destruct p; try discriminate; auto. Qed.

(* apply_seq is the application of the evaluator (the local function of
   eval_step), case by case *)
Lemma apply_seq_eq vf va s :
  apply_seq vf va s =
  match vf with
  | RecV fb xb body => SPure (subst' xb va (subst' fb vf body))
  | PrimV p args =>
      if Nat.ltb (length (args ++ [va])) (arity p) then SPure (Val (PrimV p (args ++ [va])))
      else if is_loop p then
        match expand_loop p (args ++ [va]) s with
        | Some e' => SMem e' s false
        | None => SStuck "loop applied to unexpected arguments"
        end
      else prim_step p (args ++ [va]) s
  | _ => SStuck "application of a non-function"
  end.
Proof.
  destruct vf as [l|fb xb body|v1 v2|p args]; try reflexivity.
  unfold apply_seq. destruct (waits p) eqn:Ew; cbn [andb].
  - (* a wait is not a loop *)
    destruct (Nat.ltb (length (args ++ [va])) (arity p)) eqn:El; cbn [negb].
    + unfold apply_step. cbv zeta. rewrite El. reflexivity.
    + destruct (waits_inv p Ew) as [-> | ->]; reflexivity.
  - (* not a wait: the machine's case distinction on p ends in prim_step *)
    unfold apply_step, prim_step. cbv zeta.
    destruct (Nat.ltb _ _); [reflexivity|]. destruct (is_loop p); [reflexivity|].
    destruct p; try discriminate Ew; reflexivity.
Qed.

(* where the two machines differ: nowhere but at a fully applied wait *)
Lemma apply_seq_differs vf va s :
  apply_seq vf va s <> apply_step vf va s ->
  exists p args, vf = PrimV p args /\ waits p = true /\ Nat.ltb (length (args ++ [va])) (arity p) = false.
Proof.
  unfold apply_seq. destruct vf as [l|fb xb body|v1 v2|p args]; try congruence.
  destruct (waits p) eqn:Ew; cbn [andb]; [|congruence].
  destruct (Nat.ltb _ _) eqn:El; cbn [negb]; [congruence|]. intros _. exists p, args. auto.
Qed.

(* ... and there the machine does not go on on this thread: it yields, blocks or is stuck *)
Lemma apply_step_seq vf va s : apply_step vf va s = apply_seq vf va s \/ halts (apply_step vf va s).
Proof.
  destruct vf as [l|fb xb body|v1 v2|p args]; try (left; reflexivity).
  unfold apply_seq. destruct (waits p) eqn:Ew; [|left; reflexivity].
  destruct (Nat.ltb (length (args ++ [va])) (arity p)) eqn:El; [left; reflexivity|]. right.
  destruct (waits_inv p Ew) as [-> | ->]; unfold apply_step; cbv zeta; rewrite El; cbn [is_loop];
    destruct (args ++ [va])%list as [|c [|c2 [|c3 rest]]]; try exact I;
    (destruct (cond_lock c s); [|exact I]); destruct (exec_prim PLockRelease _ s); exact I.
Qed.

Lemma prim_step_not_val p args s v : prim_step p args s <> SVal v.
Proof. unfold prim_step. destruct (exec_prim p args s); discriminate. Qed.

Lemma apply_seq_not_val vf va s v : apply_seq vf va s <> SVal v.
Proof.
  rewrite apply_seq_eq. destruct vf as [l|fb xb body|v1 v2|p args]; try discriminate.
  destruct (Nat.ltb _ _); [discriminate|].
  destruct (is_loop p); [destruct (expand_loop _ _ _); discriminate|apply prim_step_not_val].
Qed.

Lemma apply_seq_ok vf va s : step_ok (App (Val vf) (Val va)) s (apply_seq vf va s).
Proof.
  rewrite apply_seq_eq. destruct vf as [l|fb xb body|v1 v2|p args]; try exact I.
  - (* a closure *)
    intros w s1. apply evals_beta.
  - destruct (Nat.ltb (length (args ++ [va])) (arity p)) eqn:El; [|destruct (is_loop p) eqn:Eloop].
    + (* partial application *)
      apply sim2_prim_partial, El.
    + destruct (expand_loop p (args ++ [va]) s) as [e'|] eqn:Ex; [|exact I].
      apply sim2_prim_loop; assumption.
    + unfold prim_step. destruct (exec_prim p (args ++ [va]) s) as [v s'| |] eqn:Ee; try exact I.
      apply sim2_prim_exec; assumption.
Qed.

Lemma apply_step_not_val vf va s v : apply_step vf va s <> SVal v.
Proof. destruct (apply_step_seq vf va s) as [->|H]; [apply apply_seq_not_val|apply halts_not_val, H]. Qed.

Lemma apply_step_ok vf va s : step_ok (App (Val vf) (Val va)) s (apply_step vf va s).
Proof. destruct (apply_step_seq vf va s) as [->|H]; [apply apply_seq_ok|apply halts_ok, H]. Qed.

(* ---------------------------------------------------------------- any machine whose applications are sound *)
Lemma in_ctx_not_val k r v : in_ctx k r <> SVal v.
Proof. destruct r; discriminate. Qed.

Section Generic.
Variable ap : val -> val -> state -> sres.
Hypothesis Hnv : forall vf va s v, ap vf va s <> SVal v.

(* the shape of step1g at every constructor with an operand to evaluate *)
Lemma in_ctx_match k (g : val -> sres) e s :
  (forall v, step1g ap e s <> SVal v) ->
  match step1g ap e s with SVal v => g v | r => in_ctx k r end = in_ctx k (step1g ap e s).
Proof. intros Hv. destruct (step1g ap e s) as [v| | | | | |]; [destruct (Hv v eq_refl)|reflexivity..]. Qed.

Lemma step1g_fill f e s :
  (forall v, step1g ap e s <> SVal v) -> step1g ap (fill f e) s = in_ctx (fill f) (step1g ap e s).
Proof. intros Hv. destruct f; cbn [fill step1g]; apply in_ctx_match, Hv. Qed.

Lemma step1g_val e s v : step1g ap e s = SVal v -> e = Val v.
Proof.
  revert v. induction e as [f e N IH _|v0|x|fb xb b|v1 v2|op v1|op v1 v2|v0 e1 e2|v1 v2|v1|v1|c] using expr_frame_ind;
    intros v H; try discriminate H.
  - (* a frame around an expression that is not a value *)
    rewrite step1g_fill in H by (intros v0 E; exact (N v0 (IH v0 E))). destruct (in_ctx_not_val _ _ _ H).
  - injection H as <-. reflexivity.
  - destruct (Hnv _ _ _ _ H).
  - cbn [step1g] in H. destruct (un_op_eval op v1); discriminate H.
  - cbn [step1g] in H. destruct (bin_op_eval op v1 v2); discriminate H.
  - destruct v0 as [[| | |[|]| | | |]| | |]; discriminate H.
  - destruct v1; discriminate H.
  - destruct v1; discriminate H.
Qed.

(* ---------------------------------------------------------------- a run of the machine is an evaluation *)
Hypothesis Hok : forall vf va s, step_ok (App (Val vf) (Val va)) s (ap vf va s).

Lemma step1g_ok : forall e s, step_ok e s (step1g ap e s).
Proof.
  induction e as [f e N IH _|v|x|fb xb b|v1 v2|op v1|op v1 v2|v0 e1 e2|v1 v2|v1|v1|c] using expr_frame_ind;
    intros s.
  - (* the step is inside the frame, and evaluation decomposes along frames *)
    rewrite step1g_fill by (intros v E; exact (N v (step1g_val _ _ _ E))). specialize (IH s).
    destruct (step1g ap e s) as [v|e'|e' s' pr|e' c|e' s'| |w]; cbn [step_ok in_ctx] in *; try exact I.
    + apply sim2_fill, IH.
    + apply sim2_fill, IH.
    + intros w sc Hc. apply sim2_fill, (IH w sc Hc).
  - exact I.
  - exact I.
  - apply sim2_rec.
  - apply Hok.
  - cbn [step1g]. destruct (un_op_eval op v1) as [r|] eqn:Eo; [|exact I].
    exact (sim2_val (evals_unop op _ _ _ _ _ (evals_val v1 s) Eo)).
  - cbn [step1g]. destruct (bin_op_eval op v1 v2) as [r|] eqn:Eo; [|exact I].
    exact (sim2_val (evals_binop op _ _ _ _ _ _ _ _ (evals_val v2 s) (evals_val v1 s) Eo)).
  - destruct v0 as [[| | |[|]| | | |]| | |]; try exact I; [exact (sim2_if true e1 e2 s)|exact (sim2_if false e1 e2 s)].
  - apply sim2_val. exists 2. reflexivity.
  - destruct v1 as [| |a b|]; try exact I. apply sim2_val. exists 2. reflexivity.
  - destruct v1 as [| |a b|]; try exact I. apply sim2_val. exists 2. reflexivity.
  - (* Fork: the child runs first, to completion *)
    intros w sc [n Hc]. apply sim2_val. exists (S n). rewrite eval_S_unfold. unfold eval_step. rewrite Hc. reflexivity.
Qed.

Theorem mrung_sound : forall k e s v s', mrung ap k e s = Some (v, s') -> evals e s v s'.
Proof.
  induction k as [|k IH]; intros e s v s' H; [discriminate|]. cbn [mrung] in H.
  pose proof (step1g_ok e s) as Hst.
  destruct (step1g ap e s) as [v0|e'|e' s0 pr|e' c|e' s0| |w] eqn:E; try discriminate.
  - injection H as <- <-. apply step1g_val in E as ->. apply evals_val.
  - exact (Hst _ _ (IH _ _ _ _ H)).
  - exact (Hst _ _ (IH _ _ _ _ H)).
  - destruct (mrung ap k c s) as [[wc sc]|] eqn:Ec; [|discriminate].
    exact (Hst _ _ (IH _ _ _ _ Ec) _ _ (IH _ _ _ _ H)).
Qed.

(* ---------------------------------------------------------------- runs *)
Definition runs (e : expr) (s : state) (v : val) (s' : state) : Prop :=
  exists k, mrung ap k e s = Some (v, s').

Lemma mrung_mono : forall k k' e s r, mrung ap k e s = Some r -> k <= k' -> mrung ap k' e s = Some r.
Proof.
  induction k as [|k IH]; intros k' e s r H Hle; [discriminate|].
  destruct k' as [|k']; [lia|]. cbn [mrung] in *.
  destruct (step1g ap e s) as [v0|e'|e' s0 pr|e' c|e' s0| |w]; try discriminate; try exact H.
  - apply (IH k'); [exact H|lia].
  - apply (IH k'); [exact H|lia].
  - destruct (mrung ap k c s) as [[wc sc]|] eqn:Ec; [|discriminate].
    rewrite (IH k' _ _ _ Ec) by lia. apply (IH k'); [exact H|lia].
Qed.

Lemma runs_val v s : runs (Val v) s v s.
Proof. exists 1. reflexivity. Qed.

Lemma runs_pure e s e' w s1 : step1g ap e s = SPure e' -> runs e' s w s1 -> runs e s w s1.
Proof. intros E [k H]. exists (S k). cbn [mrung]. rewrite E. exact H. Qed.

Lemma runs_pure_val e s v : step1g ap e s = SPure (Val v) -> runs e s v s.
Proof. intros E. exact (runs_pure e s (Val v) v s E (runs_val v s)). Qed.

Lemma runs_mem e s e' s' pr w s1 : step1g ap e s = SMem e' s' pr -> runs e' s' w s1 -> runs e s w s1.
Proof. intros E [k H]. exists (S k). cbn [mrung]. rewrite E. exact H. Qed.

Lemma runs_fork c s wc sc : runs c s wc sc -> runs (Fork c) s (LitV LitUnit) sc.
Proof.
  intros [k H]. exists (S k). cbn [mrung step1g]. rewrite H.
  destruct k; [discriminate|reflexivity].
Qed.

Lemma runs_fill f e s v sa w s1 : runs e s v sa -> runs (fill f (Val v)) sa w s1 -> runs (fill f e) s w s1.
Proof.
  intros [k H] [j Hj]. exists (k + j). revert e s H.
  induction k as [|k IH]; intros e s H; [discriminate|]. cbn [mrung] in H.
  destruct (step1g ap e s) as [v0|e'|e' s0 pr|e' c|e' s0| |w0] eqn:E; try discriminate.
  - apply step1g_val in E as ->. injection H as <- <-. apply (mrung_mono j); [exact Hj|lia].
  - cbn [Nat.add mrung]. rewrite step1g_fill, E by (rewrite E; discriminate). exact (IH _ _ H).
  - cbn [Nat.add mrung]. rewrite step1g_fill, E by (rewrite E; discriminate). exact (IH _ _ H).
  - cbn [Nat.add mrung]. rewrite step1g_fill, E by (rewrite E; discriminate). cbn [in_ctx].
    destruct (mrung ap k c s) as [[wc sc]|] eqn:Ec; [|discriminate].
    rewrite (mrung_mono k (k + j) _ _ _ Ec) by lia. exact (IH _ _ H).
Qed.
End Generic.

Lemma step1_val e s v : step1 e s = SVal v -> e = Val v.
Proof. exact (step1g_val apply_step apply_step_not_val e s v). Qed.

Lemma step1_ok : forall e s, step_ok e s (step1 e s).
Proof. exact (step1g_ok apply_step apply_step_not_val apply_step_ok). Qed.

Theorem mrun_sound : forall k e s v s', mrun k e s = Some (v, s') -> evals e s v s'.
Proof. exact (mrung_sound apply_step apply_step_not_val apply_step_ok). Qed.

Theorem mrun_seq_sound : forall k e s v s', mrun_seq k e s = Some (v, s') -> evals e s v s'.
Proof. exact (mrung_sound apply_seq apply_seq_not_val apply_seq_ok). Qed.

Lemma mrun_seq_val k v s : mrun_seq (S k) (Val v) s = Some (v, s).
Proof. reflexivity. Qed.

(* ---------------------------------------------------------------- the converse *)
(* every evaluation is a run of the (sequential-wait) machine: the operand
   evaluated first runs by the induction hypothesis on the fuel, inside its
   frame (runs_fill); a frame around values takes one step *)
Theorem eval_is_mrun_seq : forall n e s v s',
  eval n e s = RVal v s' -> exists k, mrun_seq k e s = Some (v, s').
Proof.
  change (forall n e s v s', eval n e s = RVal v s' -> runs apply_seq e s v s').
  induction n as [|n IH]; [discriminate|].
  induction e as [f e _ _ IHf|v0|x|fb xb b|v1 v2|op v1|op v1 v2|v0 e1 e2|v1 v2|v1|v1|c] using expr_frame_ind;
    intros s v s' H.
  - rewrite eval_fill in H. apply rbind_val in H as (v0 & sa & E & H).
    exact (runs_fill apply_seq apply_seq_not_val f e s v0 sa v s' (IH _ _ _ _ E) (IHf v0 _ _ _ H)).
  - injection H as <- <-. apply runs_val.
  - discriminate.
  - injection H as <- <-. apply runs_pure_val. reflexivity.
  - (* App *)
    destruct n as [|n]; [discriminate|]. destruct v1 as [l|gb yb body|a b|p args]; try discriminate.
    + rewrite eval_app_rec in H. eapply runs_pure; [reflexivity|exact (IH _ _ _ _ H)].
    + rewrite eval_app_prim in H.
      destruct (Nat.ltb (length (args ++ [v2])) (arity p)) eqn:El; [|destruct (is_loop p) eqn:Eloop].
      * injection H as <- <-. apply runs_pure_val.
        cbn [step1g]. rewrite apply_seq_eq, El. reflexivity.
      * destruct (expand_loop p (args ++ [v2]) s) as [e'|] eqn:Ex; [|discriminate].
        eapply runs_mem; [|exact (IH _ _ _ _ H)].
        cbn [step1g]. rewrite apply_seq_eq, El, Eloop, Ex. reflexivity.
      * eapply runs_mem; [|apply runs_val].
        cbn [step1g]. rewrite apply_seq_eq, El, Eloop. unfold prim_step. rewrite H. reflexivity.
  - (* UnOp *)
    destruct n as [|n]; [discriminate|]. cbn [eval eval_step] in H.
    destruct (un_op_eval op v1) as [r|] eqn:Eo; [|discriminate]. injection H as <- <-.
    apply runs_pure_val. cbn [step1g]. rewrite Eo. reflexivity.
  - (* BinOp *)
    destruct n as [|n]; [discriminate|]. cbn [eval eval_step] in H.
    destruct (bin_op_eval op v1 v2) as [r|] eqn:Eo; [|discriminate]. injection H as <- <-.
    apply runs_pure_val. cbn [step1g]. rewrite Eo. reflexivity.
  - (* If *)
    destruct n as [|n]; [discriminate|].
    destruct v0 as [[| | |[|]| | | |]| | |]; try discriminate; (eapply runs_pure; [reflexivity|exact (IH _ _ _ _ H)]).
  - (* Pair *)
    destruct n as [|n]; [discriminate|]. injection H as <- <-. apply runs_pure_val. reflexivity.
  - (* Fst *)
    destruct n as [|n]; [discriminate|]. destruct v1 as [| |a b|]; try discriminate.
    injection H as <- <-. apply runs_pure_val. reflexivity.
  - (* Snd *)
    destruct n as [|n]; [discriminate|]. destruct v1 as [| |a b|]; try discriminate.
    injection H as <- <-. apply runs_pure_val. reflexivity.
  - (* Fork *)
    rewrite eval_S_unfold in H. cbn [eval_step] in H.
    apply rbind_val in H as (w & s1 & E1 & H). injection H as <- <-. exact (runs_fork _ _ _ _ _ (IH _ _ _ _ E1)).
Qed.

(* the two reference semantics agree on one thread *)
Theorem seq_machine_iff_eval e s v s' :
  (exists k, mrun_seq k e s = Some (v, s')) <-> (exists n, eval n e s = RVal v s').
Proof.
  split.
  - intros [k H]. exact (mrun_seq_sound k e s v s' H).
  - intros [n H]. exact (eval_is_mrun_seq n e s v s' H).
Qed.
