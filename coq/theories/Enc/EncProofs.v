From Coq Require Import List ZArith Lia Bool.
From GV Require Import Enc.Enc.
Import ListNotations.
Open Scope Z_scope.

Lemma upd_length b i x : length (upd b i x) = length b.
Proof. revert i; induction b as [|h t IH]; intros [|i]; simpl; auto. Qed.

Lemma upd_app_r pre b i x :
  upd (pre ++ b) (length pre + i) x = pre ++ upd b i x.
Proof. induction pre as [|p pre IH]; simpl; [reflexivity|]. now rewrite IH. Qed.

Lemma upd_head h t x : upd (h :: t) 0 x = x :: t.
Proof. reflexivity. Qed.

Lemma upd_app_here pre h t x : upd (pre ++ h :: t) (length pre) x = pre ++ x :: t.
Proof. rewrite <- (Nat.add_0_r (length pre)). apply upd_app_r. Qed.

Lemma pow256_S w : 2 ^ (8 * Z.of_nat (S w)) = 256 * 2 ^ (8 * Z.of_nat w).
Proof. replace (8 * Z.of_nat (S w)) with (8 + 8 * Z.of_nat w) by lia. now rewrite Z.pow_add_r by lia. Qed.

Lemma byte_at_shift v i : byte_at v (S i) = byte_at (v / 256) i.
Proof. unfold byte_at. now rewrite pow256_S, Z.div_div by lia. Qed.

Lemma byte_at_0 v : byte_at v 0 = v mod 256.
Proof. unfold byte_at. simpl. now rewrite Z.div_1_r. Qed.

(* A formulation that is stable under the induction: the bytes already stored
   are a prefix that the remaining stores leave alone. *)
Lemma stores_spec_gen w : forall pre b v, (w <= length b)%nat ->
  stores w (length pre) v (pre ++ b) = pre ++ map (byte_at v) (seq (length pre) w) ++ skipn w b.
Proof.
  induction w as [|w IH]; intros pre b v Hlen; [reflexivity|].
  destruct b as [|h t]; [simpl in Hlen; lia|].
  cbn [stores seq map skipn]. rewrite upd_app_here.
  specialize (IH (pre ++ [byte_at v (length pre)]) t v).
  rewrite app_length, Nat.add_1_r, <- !app_assoc in IH. apply IH. simpl in Hlen; lia.
Qed.

Lemma le_bytes_byte_at w : forall v, le_bytes w v = map (byte_at v) (seq 0 w).
Proof.
  induction w as [|w IH]; intros v; [reflexivity|].
  cbn [le_bytes seq map]. rewrite byte_at_0, IH, <- seq_shift, map_map. f_equal.
  apply map_ext; intros i. symmetry; apply byte_at_shift.
Qed.

Lemma put_le_refuses_iff w b v : put_le w b v = None <-> (length b < w)%nat.
Proof. unfold put_le. destruct (Nat.ltb_spec (length b) w); split; intros; try lia; try reflexivity; discriminate. Qed.

Lemma put_le_short w b v : (length b < w)%nat -> put_le w b v = None.
Proof. apply put_le_refuses_iff. Qed.

Lemma get_le_short w b : (length b < w)%nat -> get_le w b = None.
Proof. intros H. unfold get_le. destruct (Nat.ltb_spec (length b) w); [reflexivity|lia]. Qed.

Lemma put_le_frame w b v : (w <= length b)%nat -> put_le w b v = Some (le_bytes w v ++ skipn w b).
Proof.
  intros Hlen. unfold put_le.
  destruct (Nat.ltb_spec (length b) w) as [Hlt|_]; [lia|].
  f_equal. rewrite le_bytes_byte_at. exact (stores_spec_gen w [] b v Hlen).
Qed.

Lemma le_bytes_length w v : length (le_bytes w v) = w.
Proof. revert v; induction w as [|w IH]; intros v; simpl; auto. Qed.

Lemma le_bytes_nth w v i : (i < w)%nat -> nth i (le_bytes w v) 0 = (v / 2 ^ (8 * Z.of_nat i)) mod 256.
Proof.
  intros Hi. rewrite le_bytes_byte_at.
  rewrite (nth_indep _ 0 (byte_at v O)) by (rewrite map_length, seq_length; exact Hi).
  rewrite map_nth, seq_nth by exact Hi. reflexivity.
Qed.

Lemma is_byte_iff x : is_byte x = true <-> 0 <= x < 256.
Proof. unfold is_byte. rewrite andb_true_iff, Z.leb_le, Z.ltb_lt. reflexivity. Qed.

Lemma wf_cons x t : wf_bytes (x :: t) = true <-> 0 <= x < 256 /\ wf_bytes t = true.
Proof. cbn [wf_bytes forallb]. rewrite andb_true_iff, is_byte_iff. reflexivity. Qed.

Lemma wf_app a b : wf_bytes (a ++ b) = true <-> wf_bytes a = true /\ wf_bytes b = true.
Proof. unfold wf_bytes. rewrite forallb_app. apply andb_true_iff. Qed.

Lemma wf_firstn_skipn n b : wf_bytes b = true -> wf_bytes (firstn n b) = true /\ wf_bytes (skipn n b) = true.
Proof. intros H. apply wf_app. now rewrite firstn_skipn. Qed.

Lemma le_bytes_wf w : forall v, wf_bytes (le_bytes w v) = true.
Proof.
  induction w as [|w IH]; intros v; [reflexivity|].
  apply wf_cons. split; [apply Z.mod_pos_bound; lia|apply IH].
Qed.

(* value of the little-endian digits *)
Fixpoint le_value (b : bytes) : Z :=
  match b with [] => 0 | x :: t => x + 256 * le_value t end.

Lemma le_value_le_bytes w : forall v, le_value (le_bytes w v) = v mod 2 ^ (8 * Z.of_nat w).
Proof.
  induction w as [|w IH]; intros v.
  - simpl. now rewrite Z.mod_1_r.
  - cbn [le_bytes le_value]. rewrite IH, pow256_S, Z.rem_mul_r by lia. reflexivity.
Qed.

Lemma loads_shift k : forall from h t,
  loads k (S from) (h :: t) = 256 * loads k from t.
Proof.
  induction k as [|k IH]; intros from h t; [reflexivity|].
  cbn [loads nth]. rewrite IH, pow256_S. ring.
Qed.

Lemma loads_value k : forall b, (k <= length b)%nat ->
  loads k 0 b = le_value (firstn k b).
Proof.
  induction k as [|k IH]; intros b Hk; [reflexivity|].
  destruct b as [|h t]; [simpl in Hk; lia|].
  cbn [loads nth firstn le_value]. rewrite loads_shift, IH by (simpl in Hk; lia).
  simpl. ring.
Qed.

Lemma get_le_value w b : (w <= length b)%nat -> get_le w b = Some (le_value (firstn w b)).
Proof.
  intros H. unfold get_le. destruct (Nat.ltb_spec (length b) w); [lia|].
  now rewrite loads_value.
Qed.

Lemma get_le_only_prefix w b b' : (w <= length b)%nat -> (w <= length b')%nat ->
  firstn w b = firstn w b' -> get_le w b = get_le w b'.
Proof. intros H H' E. rewrite !get_le_value by assumption. now rewrite E. Qed.

Lemma get_put w b v : 0 <= v < 2 ^ (8 * Z.of_nat w) -> (w <= length b)%nat ->
  forall b', put_le w b v = Some b' -> get_le w b' = Some v.
Proof.
  intros Hv Hlen b' Hp. rewrite put_le_frame in Hp by lia. injection Hp as <-.
  rewrite get_le_value by (rewrite app_length, le_bytes_length; lia).
  rewrite firstn_app, le_bytes_length, Nat.sub_diag, firstn_O, app_nil_r.
  rewrite firstn_all2 by (rewrite le_bytes_length; lia).
  rewrite le_value_le_bytes. f_equal. apply Z.mod_small; lia.
Qed.

Lemma le_bytes_le_value b : wf_bytes b = true -> le_bytes (length b) (le_value b) = b.
Proof.
  induction b as [|x t IH]; intros Hwf; [reflexivity|].
  apply wf_cons in Hwf as [Hx Ht]. cbn [length le_bytes le_value].
  (* x is the remainder and le_value t the quotient of x + 256 * le_value t by 256 *)
  rewrite <- (Z.mod_unique_pos _ 256 (le_value t) x), <- (Z.div_unique_pos _ 256 (le_value t) x) by lia.
  now rewrite IH.
Qed.

Lemma put_get w b : wf_bytes b = true -> (w <= length b)%nat ->
  forall v, get_le w b = Some v -> put_le w b v = Some b.
Proof.
  intros Hwf Hlen v Hg. rewrite get_le_value in Hg by exact Hlen. injection Hg as <-.
  destruct (wf_firstn_skipn w b Hwf) as [Hw _].
  rewrite put_le_frame by exact Hlen. f_equal.
  replace w with (length (firstn w b)) at 1 by (rewrite firstn_length; lia).
  rewrite le_bytes_le_value by exact Hw.
  apply firstn_skipn.
Qed.

Lemma put_le_wf w b v b' : wf_bytes b = true -> put_le w b v = Some b' -> 0 <= v -> wf_bytes b' = true.
Proof.
  intros Hwf Hp _. destruct (Nat.ltb_spec (length b) w) as [Hlt|Hge].
  - rewrite put_le_short in Hp by exact Hlt. discriminate.
  - rewrite put_le_frame in Hp by assumption. injection Hp as <-.
    apply wf_app. split; [apply le_bytes_wf|apply wf_firstn_skipn, Hwf].
Qed.
