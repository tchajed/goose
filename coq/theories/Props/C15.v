(* C15 — Integer encoding is little-endian, framed and invertible.
   Property theorems only. *)
From Coq Require Import List ZArith Lia.
From GV Require Import Enc.Enc Enc.EncProofs.
Import ListNotations.
Open Scope Z_scope.

(* Put writes exactly the w little-endian bytes into the first w bytes and
   leaves every other byte untouched (w = 8 for UInt64Put, 4 for UInt32Put). *)
Theorem C15_put_frame : forall w b v, 0 <= v -> (w <= length b)%nat ->
  put_le w b v = Some (le_bytes w v ++ skipn w b).
Proof. exact (fun w b v _ => put_le_frame w b v). Qed.
Print Assumptions C15_put_frame.

(* The layout: byte i is (v / 2^(8 i)) mod 256 — little-endian. *)
Theorem C15_byte_i : forall w v i, 0 <= v -> (i < w)%nat ->
  nth i (le_bytes w v) 0 = (v / 2 ^ (8 * Z.of_nat i)) mod 256.
Proof. exact (fun w v i _ => le_bytes_nth w v i). Qed.
Print Assumptions C15_byte_i.

(* Get inverts Put for every value of the width and every long-enough buffer. *)
Theorem C15_get_put : forall w b v, 0 <= v < 2 ^ (8 * Z.of_nat w) -> (w <= length b)%nat ->
  forall b', put_le w b v = Some b' -> get_le w b' = Some v.
Proof. exact get_put. Qed.
Print Assumptions C15_get_put.

(* Get reads only the first w bytes. *)
Theorem C15_get_prefix_only : forall w b b', (w <= length b)%nat -> (w <= length b')%nat ->
  firstn w b = firstn w b' -> get_le w b = get_le w b'.
Proof. exact get_le_only_prefix. Qed.
Print Assumptions C15_get_prefix_only.

(* Put (Get b) = b: the encoding is a bijection between w-byte prefixes and values. *)
Theorem C15_put_get : forall w b, wf_bytes b = true -> (w <= length b)%nat ->
  forall v, get_le w b = Some v -> put_le w b v = Some b.
Proof. exact put_get. Qed.
Print Assumptions C15_put_get.

(* Too-short buffers are refused (None: nothing is written — the model's
   refusal carries no buffer, the caller's buffer is the unchanged input). *)
Theorem C15_short_put : forall w b v, (length b < w)%nat -> put_le w b v = None.
Proof. exact put_le_short. Qed.
Theorem C15_short_get : forall w b, (length b < w)%nat -> get_le w b = None.
Proof. exact get_le_short. Qed.
Theorem C15_put_refuses_only_short : forall w b v, put_le w b v = None <-> (length b < w)%nat.
Proof. exact put_le_refuses_iff. Qed.
Print Assumptions C15_short_put.
Print Assumptions C15_short_get.
Print Assumptions C15_put_refuses_only_short.

(* Non-vacuity: a concrete buffer and value meet the hypotheses and the
   instance used by the code (w = 8) computes as expected. *)
Example C15_example :
  put64 [9;9;9;9;9;9;9;9;7;7] 0x0102030405060708 = Some [8;7;6;5;4;3;2;1;7;7]
  /\ get64 [8;7;6;5;4;3;2;1;7;7] = Some 0x0102030405060708
  /\ put32 [9;9;9] 5 = None.
Proof. vm_compute. repeat split. Qed.
