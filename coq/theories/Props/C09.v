(* C09 — Disks are arrays of independent block-sized registers; Mem ≡ File.
   All statements are for every block size [bs] (the code's value 4096 is a
   per-run obligation in Oblig/O09.v), every disk size n >= 0 and every finite
   history.  Property theorems only. *)
From Coq Require Import List ZArith Lia.
From GV Require Import Disk.Disk Disk.DiskProofs.
Import ListNotations.
Open Scope Z_scope.

(* --- the register-array specification, stated over histories --- *)

(* every read returns the most recent accepted write to that address (zeros if
   there is none); reads out of range are refused *)
Theorem C09_read_returns_last_write : forall bs n h a,
  outs (regs_step bs) (regs_init bs n) (h ++ [ORead a]) =
  outs (regs_step bs) (regs_init bs n) h ++
  [if in_range n a then RBlock (last_write bs n h a (zeros bs)) else RRefused].
Proof. intros bs n. exact (regs_read_spec bs (regs_init bs n)). Qed.
Print Assumptions C09_read_returns_last_write.

Theorem C09_readto_returns_last_write : forall bs n h a buf, length buf = bs ->
  outs (regs_step bs) (regs_init bs n) (h ++ [OReadTo a buf]) =
  outs (regs_step bs) (regs_init bs n) h ++
  [if in_range n a then RBlock (last_write bs n h a (zeros bs)) else RRefused].
Proof. intros bs n. exact (regs_readto_spec bs (regs_init bs n)). Qed.
Print Assumptions C09_readto_returns_last_write.

(* a write affects no other address *)
Theorem C09_write_affects_no_other_address : forall bs n a a' v h cur, a' <> a ->
  last_write bs n (OWrite a' v :: h) a cur = last_write bs n h a cur.
Proof. exact last_write_other. Qed.
Print Assumptions C09_write_affects_no_other_address.

(* Size never changes *)
Theorem C09_size_constant : forall bs n h, size (fst (run (regs_step bs) (regs_init bs n) h)) = n.
Proof. intros bs n h. exact (regs_run_size bs h (regs_init bs n)). Qed.
Print Assumptions C09_size_constant.

(* writes are refused exactly for out-of-range addresses or wrong-sized
   buffers; a refused call changes nothing *)
Theorem C09_write_refused_iff : forall bs s a v,
  snd (regs_step bs s (OWrite a v)) = RRefused <-> (length v <> bs \/ in_range (size s) a = false).
Proof. exact regs_write_refused_iff. Qed.
Theorem C09_refused_changes_nothing : forall bs s o,
  snd (regs_step bs s o) = RRefused -> fst (regs_step bs s o) = s.
Proof. exact regs_refused_unchanged. Qed.
Print Assumptions C09_write_refused_iff.
Print Assumptions C09_refused_changes_nothing.

(* the contents of a buffer handed to ReadTo do not matter (only its length):
   together with the value semantics of the models (blocks are values, never
   shared with the client) this is the model-level form of "the disk neither
   retains nor exposes caller-owned memory"; the aliasing itself can only be
   observed on the Go side and is exercised by the correspondence run. *)
Theorem C09_readto_buffer_contents_irrelevant : forall bs s a buf buf', length buf = length buf' ->
  regs_step bs s (OReadTo a buf) = regs_step bs s (OReadTo a buf').
Proof. exact regs_readto_buffer_irrelevant. Qed.
Print Assumptions C09_readto_buffer_contents_irrelevant.

(* --- both implementations refine the specification, hence each other --- *)

Theorem C09_mem_refines : forall bs n h, 0 <= n -> Forall (op_ok bs) h ->
  outs (mem_step bs) (mem_init bs n) h = outs (regs_step bs) (regs_init bs n) h.
Proof. exact mem_refines. Qed.
Print Assumptions C09_mem_refines.

(* the file-backed disk: offsets a*bs computed in uint64 (wrap written into the
   model), for every size whose byte length fits in 64 bits *)
Theorem C09_file_refines : forall bs n h, 0 <= n -> n * Z.of_nat bs < 2 ^ 64 -> Forall addr_ok h ->
  outs (file_step bs) (file_init bs n) h = outs (regs_step bs) (regs_init bs n) h.
Proof. exact file_refines. Qed.
Print Assumptions C09_file_refines.

Corollary C09_mem_file_equal : forall bs n h, 0 <= n -> n * Z.of_nat bs < 2 ^ 64 -> Forall (op_ok bs) h ->
  outs (mem_step bs) (mem_init bs n) h = outs (file_step bs) (file_init bs n) h.
Proof. exact mem_file_equal. Qed.
Print Assumptions C09_mem_file_equal.

(* Non-vacuity: a history meeting the hypotheses, with its computed outputs
   (bs = 2 keeps the term small; the theorems are generic in bs). *)
Example C09_example :
  let h := [OWrite 1 [7;8]; ORead 1; ORead 0; OWrite 2 [1;1]; OWrite 0 [1]; OReadTo 1 [5;5]; OSize; OWrite 1 [9;9]; ORead 1] in
  Forall (op_ok 2) h /\
  outs (file_step 2) (file_init 2 2) h =
    [RUnit; RBlock [7;8]; RBlock [0;0]; RRefused; RRefused; RBlock [7;8]; RSize 2; RUnit; RBlock [9;9]]
  /\ outs (mem_step 2) (mem_init 2 2) h = outs (file_step 2) (file_init 2 2) h.
Proof.
  cbv zeta. split; [|split; vm_compute; reflexivity].
  repeat constructor; cbn; lia.
Qed.
