(* C16 — Remaining machine primitives meet their modelled contracts.
   Property theorems only. *)
From Coq Require Import List ZArith Lia.
From GV Require Import Prims.Prims Prims.PrimsProofs Prims.WaitTimeout.
Import ListNotations.
Open Scope Z_scope.

(* UInt64ToString is the canonical decimal rendering: digits only, no leading
   zero, and it denotes the number — hence injective — for every uint64 *)
Theorem C16_tostring_digits_only : forall n, 0 <= n < 2 ^ 64 -> forallb is_digit (to_string n) = true.
Proof. exact to_string_digits_only. Qed.
Theorem C16_tostring_no_leading_zero : forall n, 0 <= n < 2 ^ 64 ->
  exists d t, to_string n = d :: t /\ (d = 0 -> n = 0 /\ t = []).
Proof. exact to_string_no_leading_zero. Qed.
Theorem C16_tostring_value : forall n, 0 <= n < 2 ^ 64 -> of_string (to_string n) = n.
Proof. exact to_string_roundtrip. Qed.
Theorem C16_tostring_injective : forall a b, 0 <= a < 2 ^ 64 -> 0 <= b < 2 ^ 64 -> to_string a = to_string b -> a = b.
Proof. exact to_string_injective. Qed.
Print Assumptions C16_tostring_digits_only.
Print Assumptions C16_tostring_no_leading_zero.
Print Assumptions C16_tostring_value.
Print Assumptions C16_tostring_injective.

(* MapClear: the builtin clear leaves ANY map empty.  (The original range/delete
   loop did so only for keys that are equal to themselves — theorem and
   counter-example kept below; repaired by a fix: commit in /repo.) *)
Theorem C16_mapclear_empty : forall (K V : Type) (m : list (K * V)), clear_builtin m = [].
Proof. exact @clear_builtin_empty. Qed.
Theorem C16_mapclear_loop_partial : forall (K V : Type) (keq : K -> K -> bool) (m : list (K * V)) order,
  (forall e, In e m -> keq (fst e) (fst e) = true) -> (forall e, In e m -> In (fst e) order) ->
  clear_loop keq order m = [].
Proof. exact @clear_loop_empties. Qed.
Theorem C16_mapclear_loop_refuted : forall (K V : Type) (keq : K -> K -> bool) (m : list (K * V)) e,
  In e m -> (forall k, keq (fst e) k = false) -> forall order, In e (clear_loop keq order m).
Proof. exact @clear_loop_keeps_irreflexive. Qed.
Print Assumptions C16_mapclear_empty.
Print Assumptions C16_mapclear_loop_partial.
Print Assumptions C16_mapclear_loop_refuted.

(* Assume and Assert panic exactly when their argument is false *)
Theorem C16_assume : forall c, assume c = Panics <-> c = false.
Proof. exact assume_panics_iff. Qed.
Theorem C16_assert : forall c, assert c = Panics <-> c = false.
Proof. exact assert_panics_iff. Qed.
Print Assumptions C16_assume.
Print Assumptions C16_assert.

(* WaitTimeout (transition system over the caller, the helper goroutines of
   all calls so far, the mutex, the notify list, the timer and an arbitrary
   environment): it returns with the caller's lock held, the lock stays the
   caller's until the caller itself unlocks (stale helpers of timed-out calls
   never take it away), no run performs an unlock of an unlocked mutex, and
   there is no deadlock inside the call. *)
Theorem C16_wait_returns_locked : forall c c' k, wreach c -> cal c = CLock k -> wstep c c' -> cal c' = COut ->
  mu c' = Some OCaller.
Proof. intros c c' k _. apply wait_returns_locked. Qed.
Theorem C16_wait_lock_stays_with_caller : forall c c', wreach c -> cal c = COut -> mu c = Some OCaller -> wstep c c' ->
  mu c' <> mu c -> c' = set_mu c None.
Proof. exact caller_keeps_lock. Qed.
Theorem C16_wait_never_crashes : forall c, wreach c -> crashed c = false.
Proof. exact wait_never_crashes. Qed.
Theorem C16_wait_select_can_proceed : forall c k, wreach c -> cal c = CSel k ->
  exists c1, wstep c c1 /\ cal c1 = CSel k /\ fired c1 = true /\ exists c2, wstep c1 c2 /\ cal c2 = CLock k.
Proof. intros c k _. apply wait_select_can_proceed. Qed.
Theorem C16_wait_lock_can_be_released : forall c k, wreach c -> cal c = CLock k ->
  (exists c', wstep c c' /\ cal c' = COut /\ mu c' = Some OCaller)
  \/ (exists c', wstep c c' /\ mu c' = None /\ cal c' = CLock k).
Proof. exact wait_lock_can_be_released. Qed.
Print Assumptions C16_wait_returns_locked.
Print Assumptions C16_wait_lock_stays_with_caller.
Print Assumptions C16_wait_never_crashes.
Print Assumptions C16_wait_select_can_proceed.
Print Assumptions C16_wait_lock_can_be_released.

(* Non-vacuity *)
Example C16_example :
  to_string 18446744073709551615 = [1;8;4;4;6;7;4;4;0;7;3;7;0;9;5;5;1;6;1;5] /\ to_string 0 = [0] /\
  (exists c, wreach c /\ nh c = 2%nat /\ cal c = COut /\ mu c = Some OCaller /\ hs c 0%nat = HEnd).
Proof. split; [vm_compute; reflexivity|]. split; [vm_compute; reflexivity|]. exact wait_example_run. Qed.
