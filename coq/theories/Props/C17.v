(* C17 — goose command: exit status, file placement and partial output.
   Property theorems only.  Package loading (golang.org/x/tools/go/packages) and
   the translation of each package enter as inputs (the per-package results). *)
From Coq Require Import String.
From Coq Require Import List Bool.
From GV Require Import Tr.Header Tr.Cli Tr.CliProofs.
Import ListNotations.
Open Scope string_scope.

(* exit status 0 exactly when every matched package translated without error *)
Theorem C17_exit : forall ig out ex rs,
  fst (cli false ig out ex rs) = 0 <-> forall pr, In pr rs -> is_ok (snd pr) = true.
Proof. exact cli_exit. Qed.
Print Assumptions C17_exit.

(* a pattern error (syntax error, or patterns matching nothing) exits 1 and writes nothing *)
Theorem C17_pattern_error : forall ig out ex rs, cli true ig out ex rs = (1, []).
Proof. exact cli_pattern_error. Qed.
Print Assumptions C17_pattern_error.

(* placement and partial output: exactly the writes characterised here — one
   file per translated package at the Coq path derived from its import path
   with exactly its contents; for a package with an error nothing unless
   -ignore-errors, and then exactly the declarations that translated; nothing
   when the file already has those contents *)
Theorem C17_writes : forall ig out ex rs w,
  In w (snd (cli false ig out ex rs)) <->
  exists pkg r, In (pkg, r) rs /\ (is_ok r = true \/ ig = true) /\
                w = {| w_path := out_file out pkg; w_data := contents r |} /\ ex (out_file out pkg) <> Some (contents r).
Proof. exact cli_writes. Qed.
Print Assumptions C17_writes.

Theorem C17_no_partial_output_without_flag : forall out ex rs w,
  In w (snd (cli false false out ex rs)) ->
  exists pkg c, In (pkg, ROk c) rs /\ w = {| w_path := out_file out pkg; w_data := c |}.
Proof. exact cli_errors_not_written. Qed.
Print Assumptions C17_no_partial_output_without_flag.

Theorem C17_unchanged_not_rewritten : forall ig out ex rs pkg r,
  In (pkg, r) rs -> ex (out_file out pkg) = Some (contents r) ->
  (forall pkg' r', In (pkg', r') rs -> out_file out pkg' = out_file out pkg -> contents r' = contents r) ->
  forall w, In w (snd (cli false ig out ex rs)) -> w_path w <> out_file out pkg.
Proof. intros ig out ex rs pkg r _. apply cli_unchanged_not_rewritten. Qed.
Print Assumptions C17_unchanged_not_rewritten.

(* distinct packages are written to distinct files, for paths without '.'/'-' (which are mapped to '_') *)
Theorem C17_paths_injective_partial : forall out p q, plain p = true -> plain q = true ->
  out_file out p = out_file out q -> p = q.
Proof. exact cli_paths_injective_partial. Qed.
Print Assumptions C17_paths_injective_partial.
(* the mapping is not injective in general *)
Example C17_paths_clash_refuted : out_file "o" "m/a-b" = out_file "o" "m/a.b" /\ "m/a-b" <> "m/a.b".
Proof. split; [reflexivity|discriminate]. Qed.

(* Non-vacuity *)
Example C17_example :
  let ex := fun p => if String.eqb p "o/m/good.v" then Some "G" else None in
  cli false false "o" ex [("m/good", ROk "G"); ("m/bad", RErr "partial"); ("m/new", ROk "N")]
    = (1, [{| w_path := "o/m/new.v"; w_data := "N" |}]) /\
  cli false true "o" ex [("m/good", ROk "G"); ("m/bad", RErr "partial")]
    = (1, [{| w_path := "o/m/bad.v"; w_data := "partial" |}]).
Proof. vm_compute. split; reflexivity. Qed.
