(* C13 — AtomicCreate is all-or-nothing, durable-before-visible, interference-free.
   Property theorems only.  DirFs.AtomicCreate is not modelled by hand: its
   behaviour is the interpretation [prog_of] of its regenerated statement
   skeleton in the POSIX model (Fs/Posix.v); Oblig/O13.v checks per run that the
   skeleton has the shape [atomic_create_shape]. *)
From Coq Require Import String.
From Coq Require Import List ZArith Lia.
From GV Require Import Base.Skel Fs.Fs Fs.FsProofs Fs.Posix Fs.PosixProofs Fs.PosixConc.
Import ListNotations.
Local Open Scope nat_scope.

(* For ANY body of that shape, any kernel state (any old contents of the
   destination, any leftovers; the unique temp name unused or truncated), any
   chunking of the data by the write loop and any k: after the first k system
   calls — a crash (kill) or a failing system call at any step, or simply an
   instant during the call — the destination is as it was, or holds exactly
   the data; and whenever the new contents are visible they are already
   durable (fsync completed before the rename). *)
Theorem C13_all_or_nothing_and_durable_before_visible : forall ss chunks tmp dst s k,
  atomic_create_shape ss = true -> tmp <> dst -> pwf s -> safe_tmp s tmp dst true ->
  let s' := fst (prun tmp dst (firstn k (prog_of ss chunks)) s ploc0) in
  same_view dst s s' \/
  (content s' dst = Some (concat chunks) /\ durable_content s' dst = Some (Some (concat chunks))).
Proof. exact shape_atomic_and_durable. Qed.
Print Assumptions C13_all_or_nothing_and_durable_before_visible.

(* once the call returns the file holds exactly the data, whatever earlier
   interrupted calls left behind *)
Theorem C13_complete : forall ss chunks tmp dst s,
  atomic_create_shape ss = true -> tmp <> dst -> pwf s -> safe_tmp s tmp dst true ->
  content (fst (prun tmp dst (prog_of ss chunks) s ploc0)) dst = Some (concat chunks).
Proof. exact shape_complete. Qed.
Print Assumptions C13_complete.

(* concurrent calls (unique temp names): under EVERY interleaving of their
   system calls, different names do not disturb each other and the same name
   ends with the complete data of one of the calls *)
Theorem C13_concurrent_calls : forall ca cb,
  c_tmp ca <> c_tmp cb -> c_tmp ca <> c_dst ca -> c_tmp ca <> c_dst cb ->
  c_tmp cb <> c_dst ca -> c_tmp cb <> c_dst cb ->
  forall s sched, pwf s -> alookup Nat.eqb (c_tmp ca) (pnames s) = None -> alookup Nat.eqb (c_tmp cb) (pnames s) = None ->
  let g := run2 ca cb sched (start2 ca cb s) in
  g_pa g = [] -> g_pb g = [] ->
  (content (g_s g) (c_dst ca) = Some (c_data ca) \/
   (c_dst ca = c_dst cb /\ content (g_s g) (c_dst ca) = Some (c_data cb))) /\
  (content (g_s g) (c_dst cb) = Some (c_data cb) \/
   (c_dst cb = c_dst ca /\ content (g_s g) (c_dst cb) = Some (c_data ca))).
Proof. intros ca cb Htt _ Hab Hba _. exact (two_calls_any_interleaving ca cb Htt Hab Hba). Qed.
Print Assumptions C13_concurrent_calls.

Theorem C13_different_names_do_not_interfere : forall ca cb,
  c_tmp ca <> c_tmp cb -> c_tmp ca <> c_dst ca -> c_tmp ca <> c_dst cb ->
  c_tmp cb <> c_dst ca -> c_tmp cb <> c_dst cb ->
  forall s sched, pwf s -> alookup Nat.eqb (c_tmp ca) (pnames s) = None -> alookup Nat.eqb (c_tmp cb) (pnames s) = None ->
  c_dst ca <> c_dst cb ->
  let g := run2 ca cb sched (start2 ca cb s) in
  g_pa g = [] -> g_pb g = [] ->
  content (g_s g) (c_dst ca) = Some (c_data ca) /\ content (g_s g) (c_dst cb) = Some (c_data cb).
Proof. intros ca cb Htt _ Hab Hba _. exact (two_calls_different_names ca cb Htt Hab Hba). Qed.
Print Assumptions C13_different_names_do_not_interfere.

(* MemFs.AtomicCreate is one atomic step under the mutex (C14) that installs a
   fresh copy under the name and touches no other name *)
Theorem C13_memfs_atomic_create : forall s d n data, mem_nat d (dirs s) = true ->
  let s' := fst (ref_step s (FAtomicCreate d n data)) in
  exists i, alookup path_eqb (d, n) (ents s') = Some i /\ data_of i s' = data /\
            forall p, p <> (d, n) -> alookup path_eqb p (ents s') = alookup path_eqb p (ents s).
Proof. exact ref_atomic_create_spec. Qed.
Print Assumptions C13_memfs_atomic_create.

(* The shape matters (non-vacuity): the same model exhibits the failures when
   the shape is violated. *)
(* (a) temp not truncated + a longer leftover: the result is a mixture *)
Example C13_no_trunc_is_mixture :
  let s := {| pnames := [(7, 1)]; pvol := [(1, [9;9;9;9;9]%Z)]; pdur := []; pnext := 2 |} in
  content (fst (prun 7 3 (ac_prog false [[1;2]%Z]) s ploc0)) 3 = Some [1;2;9;9;9]%Z.
Proof. vm_compute. reflexivity. Qed.
(* (b) rename before fsync: a state exists where the name is visible but nothing is durable *)
Example C13_rename_before_fsync_not_durable :
  let s := {| pnames := []; pvol := []; pdur := []; pnext := 0 |} in
  let s' := fst (prun 7 3 [POpen true; PWrite [1;2]%Z; PRename] s ploc0) in
  content s' 3 = Some [1;2]%Z /\ durable_content s' 3 = Some None.
Proof. vm_compute. split; reflexivity. Qed.
(* (c) a shared temp name under concurrency: the surviving file mixes the two calls *)
Example C13_shared_tmp_mixes :
  let ca := {| c_tmp := 7; c_dst := 3; c_chunks := [[1;1;1]%Z] |} in
  let cb := {| c_tmp := 7; c_dst := 3; c_chunks := [[2]%Z] |} in
  let s := {| pnames := []; pvol := []; pdur := []; pnext := 0 |} in
  let g := run2 ca cb [true; false; true; false; false; false] (start2 ca cb s) in
  content (g_s g) 3 = Some [2;1;1]%Z.
Proof. vm_compute. reflexivity. Qed.

(* Non-vacuity of the main theorem: a concrete state with an old destination and a leftover *)
Example C13_example :
  let s := {| pnames := [(3, 0); (7, 1)]; pvol := [(0, [5;5]%Z); (1, [9;9;9;9;9]%Z)]; pdur := [(0, [5;5]%Z)]; pnext := 2 |} in
  pwf s /\ safe_tmp s 7 3 true /\
  map (fun k => content (fst (prun 7 3 (firstn k (ac_prog true [[1]%Z;[2]%Z])) s ploc0)) 3) [0;1;2;3;4;5]
  = [Some [5;5]; Some [5;5]; Some [5;5]; Some [5;5]; Some [5;5]; Some [1;2]]%Z.
Proof.
  cbv zeta. split; [|split; [|vm_compute; reflexivity]].
  - intros n i H. cbn in *. destruct (Nat.eqb n 3); [injection H as <-; lia|].
    destruct (Nat.eqb n 7); [injection H as <-; lia|discriminate].
  - cbn. split; [reflexivity|discriminate].
Qed.
