(* C14 — Filesystem operations are linearizable under concurrency.
   Property theorems only. *)
From Coq Require Import List ZArith Lia.
From GV Require Import Fs.Fs Fs.FsProofs Conc.Lin Conc.SingleLock Conc.LinCheck Conc.FsConc.
Import ListNotations.

(* MemFs: every method runs as one atomic step under the mutex (shape checked
   per run in Oblig/O14.v), hence — for every number of client goroutines,
   every operation sequence and every schedule — the history is linearizable
   w.r.t. the sequential MemFs model ... *)
Theorem C14_memfs_linearizable : forall c,
  reachable fmd fprog finit fresult memfs_init c ->
  linearizable memfs_step memfs_init (history (tr c)).
Proof. exact memfs_linearizable. Qed.
Print Assumptions C14_memfs_linearizable.

(* ... and w.r.t. the reference model whenever the operations, in the order of
   their linearization points, respect the documented preconditions. *)
Theorem C14_memfs_linearizable_ref : forall c,
  reachable fmd fprog finit fresult memfs_init c ->
  exists tau f, history tau = history (tr c) /\ wf_tr tau f /\
    (exists a, legal memfs_step memfs_init tau a) /\
    (valid_history (lin_ops tau) -> exists b, legal ref_step fs_init tau b).
Proof. exact memfs_linearizable_ref. Qed.
Print Assumptions C14_memfs_linearizable_ref.

(* consequences on the reference model, for ANY two operations linearized in
   either order: concurrent Create of one name succeeds exactly once *)
Theorem C14_create_once : forall s d n, mem_nat d (dirs s) = true ->
  alookup path_eqb (d, n) (ents s) = None ->
  exists fd, snd (ref_step s (FCreate d n)) = OFd fd /\
             snd (ref_step (fst (ref_step s (FCreate d n))) (FCreate d n)) = ONoFd.
Proof. exact ref_create_twice. Qed.
Print Assumptions C14_create_once.

(* appends through distinct descriptors are applied atomically, none is lost:
   in either order both data are in the file, contiguous *)
Theorem C14_appends_not_lost : forall s fd1 fd2 i d1 d2, fd1 <> fd2 ->
  alookup Nat.eqb fd1 (fdt s) = Some (i, true) -> alookup Nat.eqb fd2 (fdt s) = Some (i, true) ->
  data_of i (fst (ref_step (fst (ref_step s (FAppend fd1 d1))) (FAppend fd2 d2))) = (data_of i s ++ d1) ++ d2.
Proof. intros s fd1 fd2 i d1 d2 _. apply ref_two_appends. Qed.
Print Assumptions C14_appends_not_lost.

(* descriptor numbers handed out are distinct: the second allocation differs from the first *)
Theorem C14_descriptors_distinct : forall s o1 o2 fd1 fd2, ref_inv s ->
  snd (ref_step s o1) = OFd fd1 -> snd (ref_step (fst (ref_step s o1)) o2) = OFd fd2 -> fd1 <> fd2.
Proof. intros s o1 o2 fd1 fd2 _. apply ref_two_fds_distinct. Qed.
Print Assumptions C14_descriptors_distinct.

(* recorded histories are judged by a sound and complete checker *)
Theorem C14_checker_decides : forall erased ts h, threads_in ts h ->
  (fs_lin_check erased ts h = true <->
   linearizable (if erased then ref_step_erased else ref_step) fs_init (rev h)).
Proof. exact fs_lin_check_correct. Qed.
Print Assumptions C14_checker_decides.

(* Non-vacuity: a reachable concurrent configuration (two clients racing to create one name) *)
Example C14_example_reachable :
  exists c, reachable fmd fprog finit fresult memfs_init c /\
            history (tr c) = [HInv 1%nat (FCreate 0 0); HInv 0%nat (FCreate 0 0)].
Proof.
  eexists. split.
  - eapply r_step; [eapply r_step; [apply r_init|]|].
    + apply (s_invoke _ _ _ _ _ 0%nat (FCreate 0 0)). reflexivity.
    + apply (s_invoke _ _ _ _ _ 1%nat (FCreate 0 0)). reflexivity.
  - reflexivity.
Qed.
