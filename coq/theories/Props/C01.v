(* C01 — accepted sequential programs keep their meaning in GooseLang.
   Property theorems only.  The reference semantics is Lang/GlSem.v; the model
   of the translator for the core fragment is Tr/MiniGo.v. *)
From Coq Require Import String List ZArith.
From GV Require Import Lang.GlSyntax Lang.GlSem Lang.GlSemProofs.
Import ListNotations.

(* "the result of the emitted definition under GooseLang's semantics" is well
   defined: a run that finishes (with a value or stuck) finishes with the same
   result for every larger fuel, and two finished runs agree *)
Theorem C01_more_fuel_same_result : forall n m e s r,
  (n <= m)%nat -> eval n e s = r -> r <> RFuel -> eval m e s = r.
Proof. intros n m e s r Hle H Hr. exact (eval_mono m H Hr Hle). Qed.
Print Assumptions C01_more_fuel_same_result.

Theorem C01_result_independent_of_fuel : forall n m e s r1 r2,
  eval n e s = r1 -> eval m e s = r2 -> r1 <> RFuel -> r2 <> RFuel -> r1 = r2.
Proof. exact eval_fuel_irrelevant. Qed.
Print Assumptions C01_result_independent_of_fuel.

(* The core fragment (Tr/MiniGo.v: uint64 and bool values with wrap-around
   arithmetic, := and var locals with shadowing, assignment, op-assignment,
   ++/--, if/else with early returns).  tr_block is the term Coq reads from
   goose's output (checked syntactically, function by function, on every run);
   go_call is Go's semantics of the fragment (checked against the Go toolchain
   on every run).  For every function body the translator model accepts, every
   argument vector and every run of Go that returns: the emitted body, with the
   parameters replaced by the arguments, evaluates under the reference
   semantics to the value Go returns, in the store Go ends in. *)
From GV Require Import Tr.MiniGo Tr.MiniGoProofs.

Theorem C01_core_fragment_meaning_preserved : forall n tf fn e args v s',
  tr_block tf (params_env (f_params fn)) Returned (f_body fn) = Some e ->
  length args = length (f_params fn) ->
  go_call n fn args = OReturn v s' ->
  exists m, eval m (close (cs_of (rev (combine (map fst (f_params fn)) (map Imm args)))) e) state0 = RVal v s'.
Proof. exact body_correct. Qed.
Print Assumptions C01_core_fragment_meaning_preserved.

(* functions without result *)
Theorem C01_core_fragment_unit_functions : forall n tf fn e args r' s',
  tr_block tf (params_env (f_params fn)) Returned (f_body fn) = Some e ->
  length args = length (f_params fn) ->
  go_call n fn args = ONormal r' s' ->
  exists m, eval m (close (cs_of (rev (combine (map fst (f_params fn)) (map Imm args)))) e) state0 = RVal (LitV LitUnit) s'.
Proof. exact body_correct_unit. Qed.
Print Assumptions C01_core_fragment_unit_functions.

(* every statement list, every usage, every environment the translator's view
   agrees with: the general statement the two above are instances of *)
Theorem C01_statement_lists : forall n tf G u b e r s,
  tr_block tf G u b = Some e -> agree G r s -> post u e r s (go_block n r s b).
Proof. exact block_correct. Qed.
Print Assumptions C01_statement_lists.

(* expressions: operators, conversions between comparison spellings, && and || *)
Theorem C01_expressions : forall G r s, agree G r s ->
  forall e e' v, tr_expr G e = Some e' -> go_expr r s e = Some v ->
  exists m, eval m (close (cs_of r) e') s = RVal v s.
Proof. exact tr_expr_correct. Qed.
Print Assumptions C01_expressions.

(* the hypotheses are satisfiable: an accepted function with shadowing, an
   early return and updates, returning in Go *)
Theorem C01_example :
  (exists e, tr_block 20 (params_env (f_params example_fn)) Returned (f_body example_fn) = Some e) /\
  (exists s', go_call 20 example_fn [LitV (LitInt 1); LitV (LitBool true)] = OReturn (LitV (LitInt 24)) s') /\
  (exists s', go_call 20 example_fn [LitV (LitInt 40); LitV (LitBool false)] = OReturn (LitV (LitInt 81)) s').
Proof. exact example_fn_accepted_and_returns. Qed.
Print Assumptions C01_example.

(* the whole definition: the value goose emits for a function of the fragment
   (rec: "F" "p1" ... "pn" := body), applied to the argument values, evaluates
   to the value Go returns, in the store Go ends in (parameter names distinct
   from each other and from the function's name, at least one parameter) *)
Theorem C01_core_fragment_functions : forall n fn f args v s',
  tr_func fn = Some f ->
  NoDup (f_name fn :: map fst (f_params fn)) -> f_params fn <> [] ->
  length args = length (f_params fn) ->
  go_call n fn args = OReturn v s' ->
  exists m, eval m (fold_left App (map Val args) (Val f)) state0 = RVal v s'.
Proof. exact func_correct. Qed.
Print Assumptions C01_core_fragment_functions.

(* Loops (Tr/MiniGoL.v: the fragment above plus 3-clause and condition-only for
   loops with break and continue, loop variables whose binding extends over the
   following statements unless it hides a visible variable).  For every body
   without nested blocks that the translator model accepts, every argument
   vector and every returning Go run, the emitted body evaluates to Go's result;
   the general statement covers every statement list under the three usages
   (function tail, loop body, local) and every loop with any number of
   iterations. *)
From GV Require Import Tr.MiniGoL Tr.MiniGoLProofs Tr.MiniGoLBlocks.

Theorem C01_loops_meaning_preserved : forall n tf fn e args v s',
  trl tf (params_env (lf_params fn)) UReturned (lf_body fn) None = Some e ->
  noblocks (lf_body fn) = true ->
  length args = length (lf_params fn) ->
  lgo_call n fn args = LRet v s' ->
  exists m, eval m (close (cs_of (rev (combine (map fst (lf_params fn)) (map Imm args)))) e) state0 = RVal v s'.
Proof. intros n tf fn e args v s' Htr _. exact (lbodyk_correct n tf fn e args v s' Htr). Qed.
Print Assumptions C01_loops_meaning_preserved.

Theorem C01_loops_statement_lists_and_iterations : forall n, P_lgo n /\ P_lloop n.
Proof. exact trl_correct. Qed.
Print Assumptions C01_loops_statement_lists_and_iterations.

Theorem C01_loops_example :
  (exists e, trl 30 (params_env (lf_params example_loop)) UReturned (lf_body example_loop) None = Some e) /\
  noblocks (lf_body example_loop) = true /\
  (exists s', lgo_call 200 example_loop [LitV (LitInt 6)] = LRet (LitV (LitInt 9)) s') /\
  (exists s', lgo_call 200 example_loop [LitV (LitInt 100)] = LRet (LitV (LitInt 99)) s').
Proof. exact example_loop_accepted_and_returns. Qed.
Print Assumptions C01_loops_example.

(* ... and nested blocks: the same without the restriction.  A nested block (or
   loop variable) that is followed by more statements is printed without
   delimiters unless it hides a visible variable; the theorem covers the scope
   of its bindings exactly as Coq reads the text. *)

Theorem C01_loops_and_blocks_meaning_preserved : forall n tf fn e args v s',
  trl tf (params_env (lf_params fn)) UReturned (lf_body fn) None = Some e ->
  length args = length (lf_params fn) ->
  lgo_call n fn args = LRet v s' ->
  exists m, eval m (close (cs_of (rev (combine (map fst (lf_params fn)) (map Imm args)))) e) state0 = RVal v s'.
Proof. exact lbodyk_correct. Qed.
Print Assumptions C01_loops_and_blocks_meaning_preserved.

Theorem C01_loops_and_blocks_statement_lists : forall n, Q_lgo n /\ Q_lloop n.
Proof. exact trlk_correct. Qed.
Print Assumptions C01_loops_and_blocks_statement_lists.

(* ... and for the emitted definition as a whole: the curried header and the
   recursion binder of the loop fragment's functions, applied to the arguments
   (or to the unit value for a function without parameters) *)
From GV Require Import Tr.MiniGoLFunc.

Theorem C01_loops_and_blocks_functions : forall n fn f args v s',
  trl_func fn = Some f ->
  NoDup (lf_name fn :: map fst (lf_params fn)) -> lf_params fn <> [] ->
  length args = length (lf_params fn) ->
  lgo_call n fn args = LRet v s' ->
  exists m, eval m (fold_left App (map Val args) (Val f)) state0 = RVal v s'.
Proof. exact lfunc_correct. Qed.
Print Assumptions C01_loops_and_blocks_functions.

Theorem C01_loops_and_blocks_nullary_functions : forall n fn f v s',
  trl_func fn = Some f -> lf_params fn = [] ->
  lgo_call n fn [] = LRet v s' ->
  exists m, eval m (App (Val f) (Val vunit)) state0 = RVal v s'.
Proof. exact lfunc_correct_nullary. Qed.
Print Assumptions C01_loops_and_blocks_nullary_functions.

(* Calls (Tr/MiniGoC.v: packages of first-order functions over uint64 and bool
   that call each other and themselves, in any expression position).  trc_prog
   is the list of values Coq reads from goose's output for the package, in the
   order of the emitted file (checked syntactically on every run, together with
   that order: every callee before its callers); cgo_body is Go's semantics of
   the fragment with every function of the package in scope (checked against
   the Go toolchain on every run).  For every package the translator model
   accepts, every function of it, every argument vector and every returning
   run of Go - through any depth of calls and recursion - the emitted value of
   the function, applied to the arguments the way a caller applies it (to the
   unit value when there are none), evaluates under the reference semantics
   to the value Go returns. *)
From GV Require Import Tr.MiniGoC Tr.MiniGoCProofs.

Theorem C01_calls_meaning_preserved : forall P vs,
  trc_prog P = Some vs ->
  Forall2 (fun fn F => forall n args v s,
             length args = length (cf_params fn) ->
             cgo_body n P (rev (combine (cf_params fn) args)) (cf_body fn) = Some v ->
             exists m, eval m (call_expr F args) s = RVal v s) P vs.
Proof. exact prog_correct. Qed.
Print Assumptions C01_calls_meaning_preserved.

(* by name, as the harness calls the functions *)
Theorem C01_calls_by_name : forall P vs n f args v,
  trc_prog P = Some vs -> cgo_call n P f args = Some v ->
  exists i fn F, nth_error P i = Some fn /\ cf_name fn = f /\ nth_error vs i = Some F /\
    forall s, exists m, eval m (call_expr F args) s = RVal v s.
Proof. exact call_correct. Qed.
Print Assumptions C01_calls_by_name.

(* inside a body: expressions with calls, argument lists and statement lists,
   against any table of already emitted functions (the induction the two above
   rest on) *)
Theorem C01_calls_expressions_arguments_bodies : forall P n, PE P n /\ PA P n /\ PB P n.
Proof. exact all_correct. Qed.
Print Assumptions C01_calls_expressions_arguments_bodies.

(* the hypotheses are satisfiable: a package with recursion (Gcd, Use), a
   function without parameters and calls nested in arguments is accepted and
   returns in Go; a package whose functions are not in dependency order has no
   translation *)
Theorem C01_calls_example :
  (exists vs, trc_prog ex_prog = Some vs /\ length vs = 3%nat) /\
  cgo_call 200 ex_prog "Use" [LitV (LitInt 48); LitV (LitBool true)] = Some (LitV (LitInt 8)) /\
  cgo_call 200 ex_prog "Gcd" [LitV (LitInt 48); LitV (LitInt 18)] = Some (LitV (LitInt 6)).
Proof. exact ex_prog_accepted_and_returns. Qed.
Print Assumptions C01_calls_example.

(* "the value Go returns" is well defined for the fragment's Go semantics:
   two runs that return, with whatever fuel, return the same value (and by
   C01_result_independent_of_fuel so do two finished evaluations of the
   emitted term) *)
Theorem C01_calls_go_result_independent_of_fuel : forall P f args n m v w,
  cgo_call n P f args = Some v -> cgo_call m P f args = Some w -> v = w.
Proof. exact cgo_call_fuel_irrelevant. Qed.
Print Assumptions C01_calls_go_result_independent_of_fuel.

(* ... and composed with the model of goose's emission order (C04, Tr/Decls.v):
   for a package given in SOURCE order whose calls name functions of the
   package, whose functions translate on their own and whose call graph has no
   cycle other than self-calls, the definitions in the order goose emits them
   preserve meaning *)
From GV Require Import Tr.Decls Tr.DeclsProofs Tr.MiniGoCOrder.

Theorem C01_calls_in_gooses_emission_order : forall P rk order,
  NoDup (map cf_name P) ->
  (forall fn g, In fn P -> In g (callees_b (cf_body fn)) -> exists gn, In gn P /\ cf_name gn = g) ->
  (forall fn, In fn P -> exists T0 v, trc_func T0 fn = Some v) ->
  acyclic (decls_of P) rk -> emit_order (decls_of P) = Some order ->
  exists vs, trc_prog (pick P order) = Some vs /\
    Forall2 (fun fn F => forall n args v s,
               length args = length (cf_params fn) ->
               cgo_body n (pick P order) (rev (combine (cf_params fn) args)) (cf_body fn) = Some v ->
               exists m, eval m (call_expr F args) s = RVal v s) (pick P order) vs.
Proof. exact goose_order_preserves_meaning. Qed.
Print Assumptions C01_calls_in_gooses_emission_order.

(* Calls and mutable variables together (Tr/MiniGoS.v: the expressions of the
   call fragment with var-declared locals in heap cells, assignment,
   op-assignment, ++/--, := locals, if/else with early returns).  The model of
   Go threads the store - a callee allocates and updates its own cells - and
   works on the very heap of the reference semantics.  For every package the
   translator model accepts, every function, every argument vector, every
   initial store and every returning run of Go, the emitted value applied to
   the arguments evaluates to the value Go returns and ends in the store Go
   ends in, through any depth of calls and recursion. *)
From GV Require Import Tr.MiniGoS Tr.MiniGoSProofs.

Theorem C01_calls_and_variables_meaning_preserved : forall P vs,
  trs_prog P = Some vs ->
  Forall2 (fun fn F => forall n args v s s',
             length args = length (sf_params fn) ->
             sgo_body n P (rev (combine (map fst (sf_params fn)) (map Imm args))) s (sf_body fn) = Some (v, s') ->
             exists m, eval m (call_expr F args) s = RVal v s') P vs.
Proof. exact sprog_correct. Qed.
Print Assumptions C01_calls_and_variables_meaning_preserved.

Theorem C01_calls_and_variables_by_name : forall P vs n f args v s',
  trs_prog P = Some vs -> sgo_call n P f args = Some (v, s') ->
  exists i fn F, nth_error P i = Some fn /\ sf_name fn = f /\ nth_error vs i = Some F /\
    exists m, eval m (call_expr F args) state0 = RVal v s'.
Proof. exact scall_correct. Qed.
Print Assumptions C01_calls_and_variables_by_name.

(* expressions with calls (store threaded, operands in the order of the emitted
   term), argument lists (last argument first) and statement lists, against
   any table of already emitted functions, together with: every cell that
   exists stays a cell *)
Theorem C01_calls_and_variables_statement_lists : forall P n, QE P n /\ QA P n /\ QL P n /\ QB P n.
Proof. exact sall_correct. Qed.
Print Assumptions C01_calls_and_variables_statement_lists.

Theorem C01_calls_and_variables_example :
  (exists vs, trs_prog sx_prog = Some vs /\ length vs = 2%nat) /\
  (exists s', sgo_call 200 sx_prog "Use" [LitV (LitInt 4)] = Some (LitV (LitInt 45), s')) /\
  (exists s', sgo_call 200 sx_prog "Sum" [LitV (LitInt 3); LitV (LitInt 2)] = Some (LitV (LitInt 10), s')).
Proof. exact sx_prog_accepted_and_returns. Qed.
Print Assumptions C01_calls_and_variables_example.

(* ... and Go's result (value and store) in that fragment does not depend on the fuel *)
Theorem C01_calls_and_variables_go_result_independent_of_fuel : forall P f args n m x y,
  sgo_call n P f args = Some x -> sgo_call m P f args = Some y -> x = y.
Proof. exact sgo_call_fuel_irrelevant. Qed.
Print Assumptions C01_calls_and_variables_go_result_independent_of_fuel.
