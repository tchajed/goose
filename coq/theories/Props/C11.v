(* C11 — Disk contents persist across reopen; I/O failures are never silent.
   Property theorems only. *)
From Coq Require Import String.
From Coq Require Import List ZArith Lia.
From GV Require Import Base.Skel Disk.Disk Disk.DiskProofs Disk.Reopen Disk.Faults.
Import ListNotations.
Open Scope Z_scope.

(* Opening an image of ANY previous length (or none) yields a disk of exactly
   the requested number of blocks; retained bytes are preserved, new bytes are
   zero.  (n*bs < 2^63: the byte length must be a valid off_t.) *)
Theorem C11_open_spec : forall bs n prev d, 0 <= n -> n * Z.of_nat bs < 2 ^ 63 ->
  open_disk bs n prev = Some d ->
  let f := match prev with None => [] | Some f => f end in
  nblocks d = n /\ length (file d) = (Z.to_nat n * bs)%nat /\
  (forall i, (i < length f)%nat -> (i < Z.to_nat n * bs)%nat -> nth i (file d) 0 = nth i f 0) /\
  (forall i, (length f <= i)%nat -> nth i (file d) 0 = 0).
Proof. exact open_disk_spec. Qed.
Print Assumptions C11_open_spec.

Theorem C11_open_succeeds : forall bs n prev, 0 <= n -> n * Z.of_nat bs < 2 ^ 63 ->
  exists d, open_disk bs n prev = Some d.
Proof. exact open_disk_succeeds. Qed.
Print Assumptions C11_open_succeeds.

(* An opened disk is a register array over the image's blocks ... *)
Theorem C11_open_is_register_array : forall bs n prev d, 0 <= n -> n * Z.of_nat bs < 2 ^ 63 ->
  open_disk bs n prev = Some d ->
  Rfile bs d {| size := n; reg := fun a => blk_at bs (file d) (Z.to_nat a) |}.
Proof. exact open_any_image. Qed.
Print Assumptions C11_open_is_register_array.

(* ... and after ANY history, Close and reopen (same or different size), every
   later history sees the registers holding the last values written before the
   close, with zero registers beyond the old size. *)
Theorem C11_reopen : forall bs d0 s0 h n' d2 h', Rfile bs d0 s0 -> Forall addr_ok h -> Forall addr_ok h' ->
  0 <= n' -> n' * Z.of_nat bs < 2 ^ 63 ->
  open_disk bs n' (Some (close_disk (fst (run (file_step bs) d0 h)))) = Some d2 ->
  outs (file_step bs) d2 h' =
  outs (regs_step bs) (regs_reopened bs (fst (run (regs_step bs) s0 h)) n') h'.
Proof. exact reopen_outs. Qed.
Print Assumptions C11_reopen.

(* I/O failures are never silent: for ANY body accepted by the checker
   [surfaces] (per-run obligations in Oblig/O11.v instantiate it with the
   regenerated skeletons of ReadTo, Read, Write, Barrier, NewFileDisk), on every
   path — all inputs, all fault sequences — on which some system call failed,
   the body panics or returns the error. *)
Theorem C11_faults_surface : forall ss tr o s',
  surfaces ss = true -> exec ss {| err := false; pending := false |} tr o s' ->
  some_failed tr = true -> o = OPanic \/ o = OReturn true.
Proof. intros ss tr o s'. apply failures_never_silent. Qed.
Print Assumptions C11_faults_surface.

(* a body that starts with a system call issues it on every path (Barrier: fsync) *)
Theorem C11_first_syscall_issued : forall asg c args t s tr o s',
  is_syscall c = true -> exec (SCall asg c args :: t) s tr o s' ->
  exists failed tr', tr = (c, args, failed) :: tr'.
Proof. exact first_syscall_issued. Qed.
Print Assumptions C11_first_syscall_issued.

(* Non-vacuity: the hypotheses are met by concrete objects. *)
Example C11_example_open :
  open_disk 2 3 (Some [1;2;3]) = Some {| nblocks := 3; file := [1;2;3;0;0;0] |} /\
  open_disk 2 1 (Some [1;2;3]) = Some {| nblocks := 1; file := [1;2] |} /\
  open_disk 2 2 None = Some {| nblocks := 2; file := [0;0;0;0] |}.
Proof. vm_compute. repeat split. Qed.

Example C11_example_fault_path :
  let body := [SCall ["err"%string] "unix.Fsync"%string ["d.fd"%string];
               SIf "err != nil"%string [SCall [] "panic"%string ["x"%string]] []] in
  surfaces body = true /\
  exec body {| err := false; pending := false |} [("unix.Fsync"%string, ["d.fd"%string], true)] OPanic {| err := true; pending := true |}.
Proof.
  cbv zeta. split; [vm_compute; reflexivity|].
  eapply E_sys_fail; [reflexivity|]. cbn.
  eapply (E_if_stop "err != nil"%string _ _ [SCall [] "panic"%string ["x"%string]] [] _ []).
  - reflexivity.
  - apply E_panic.
  - discriminate.
Qed.
