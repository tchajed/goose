(* C12 — MemFs ≡ DirFs ≡ reference model on all valid histories.
   Property theorems only.  The reference model is Fs.ref_step; MemFs is the
   mirror Fs.memfs_step of machine/filesys/mem.go (bodies frozen in Oblig/O12.v);
   DirFs is tied to the reference model by the differential runs only (the
   kernel is its implementation). *)
From Coq Require Import List ZArith Lia.
From GV Require Import Fs.Fs Fs.FsProofs.
Import ListNotations.
Open Scope Z_scope.

(* MemFs returns the reference model's results on EVERY valid history *)
Theorem C12_memfs_refines : forall h, valid_history h ->
  fouts memfs_step memfs_init h = fouts ref_step fs_init h.
Proof. exact memfs_refines. Qed.
Print Assumptions C12_memfs_refines.

(* --- the reference model has the properties the statement lists --- *)

(* every Create/Open yields an independent descriptor: it is fresh (not open,
   never handed out before: numbers only grow) and allocating it leaves every
   other descriptor untouched; closing one leaves the others untouched *)
Theorem C12_ref_fresh_descriptor : forall s o fd, ref_inv s -> snd (ref_step s o) = OFd fd ->
  alookup Nat.eqb fd (fdt s) = None /\ fd = nfd s /\ nfd (fst (ref_step s o)) = S fd /\
  (forall fd', fd' <> fd -> alookup Nat.eqb fd' (fdt (fst (ref_step s o))) = alookup Nat.eqb fd' (fdt s)).
Proof. exact ref_fresh_descriptor. Qed.
Theorem C12_ref_close_independent : forall s fd fd', fd' <> fd ->
  alookup Nat.eqb fd' (fdt (fst (ref_step s (FClose fd)))) = alookup Nat.eqb fd' (fdt s).
Proof. exact ref_close_independent. Qed.
Print Assumptions C12_ref_fresh_descriptor.
Print Assumptions C12_ref_close_independent.

(* the invariant used above holds in every reachable state *)
Theorem C12_ref_invariant : forall h, ref_inv (fst (frun ref_step fs_init h)).
Proof. intros h. apply ref_run_inv. exact ref_inv_init. Qed.
Print Assumptions C12_ref_invariant.

(* Create fails iff the name exists, and then has no side effect *)
Theorem C12_ref_create_fails_iff : forall s d n,
  snd (ref_step s (FCreate d n)) = ONoFd <->
  (mem_nat d (dirs s) = true /\ exists i, alookup path_eqb (d, n) (ents s) = Some i).
Proof. exact ref_create_fails_iff. Qed.
Theorem C12_ref_create_fail_no_side_effect : forall s d n,
  snd (ref_step s (FCreate d n)) = ONoFd -> fst (ref_step s (FCreate d n)) = s.
Proof. exact ref_create_fail_no_side_effect. Qed.
Print Assumptions C12_ref_create_fails_iff.
Print Assumptions C12_ref_create_fail_no_side_effect.

(* hard links share contents *)
Theorem C12_ref_link_shares : forall s od on nd nn,
  snd (ref_step s (FLink od on nd nn)) = OBool true ->
  let s' := fst (ref_step s (FLink od on nd nn)) in
  exists i, alookup path_eqb (od, on) (ents s') = Some i /\ alookup path_eqb (nd, nn) (ents s') = Some i.
Proof. exact ref_link_shares. Qed.
Theorem C12_ref_read_sees_appends : forall s fd i data fd' off len,
  alookup Nat.eqb fd (fdt s) = Some (i, true) -> alookup Nat.eqb fd' (fdt s) = Some (i, false) ->
  snd (ref_step (fst (ref_step s (FAppend fd data))) (FReadAt fd' off len)) =
  OBytes (read_range (data_of i s ++ data) off len).
Proof. exact ref_read_sees_appends. Qed.
Print Assumptions C12_ref_link_shares.
Print Assumptions C12_ref_read_sees_appends.

(* a deleted file stays readable through open descriptors *)
Theorem C12_ref_delete_keeps_open_files : forall s d n,
  inos (fst (ref_step s (FDelete d n))) = inos s /\ fdt (fst (ref_step s (FDelete d n))) = fdt s.
Proof. exact ref_delete_keeps_open_files. Qed.
Print Assumptions C12_ref_delete_keeps_open_files.

(* ReadAt returns exactly the bytes of [offset, offset+length) that exist *)
Theorem C12_ref_readat_spec : forall s fd i off len,
  alookup Nat.eqb fd (fdt s) = Some (i, false) -> 0 <= off -> 0 <= len ->
  exists b, snd (ref_step s (FReadAt fd off len)) = OBytes b /\
            length b = Nat.min (Z.to_nat len) (length (data_of i s) - Z.to_nat off) /\
            forall k d, (k < length b)%nat -> nth k b d = nth (Z.to_nat off + k) (data_of i s) d.
Proof. intros s fd i off len H _ _. exact (ref_readat_spec s fd i off len H). Qed.
Print Assumptions C12_ref_readat_spec.

(* List returns exactly the set of names in that directory *)
Theorem C12_ref_list_spec : forall s d n, mem_nat d (dirs s) = true ->
  exists l, snd (ref_step s (FList d)) = ONames l /\
            (In n l <-> exists i, alookup path_eqb (d, n) (ents s) = Some i).
Proof. intros s d n Hd. destruct (ref_list_spec s d Hd) as (l & Hl & Hn). exists l. auto. Qed.
Print Assumptions C12_ref_list_spec.

(* AtomicCreate installs exactly data under the name and touches no other name *)
Theorem C12_ref_atomic_create_spec : forall s d n data, mem_nat d (dirs s) = true ->
  let s' := fst (ref_step s (FAtomicCreate d n data)) in
  exists i, alookup path_eqb (d, n) (ents s') = Some i /\ data_of i s' = data /\
            forall p, p <> (d, n) -> alookup path_eqb p (ents s') = alookup path_eqb p (ents s).
Proof. exact ref_atomic_create_spec. Qed.
Print Assumptions C12_ref_atomic_create_spec.

(* "returned and passed byte slices are never aliased with file contents": in
   the models contents are values; aliasing exists only on the Go side and is
   exercised by the differential run (buffers are mutated after every call). *)

(* Non-vacuity: a valid history exercising descriptors, links, deletion and reads *)
Example C12_example :
  let h := [FMkdir 0; FCreate 0 1; FAppend 0 [1;2;3]; FOpen 0 1; FCreate 0 1; FLink 0 1 0 2; FDelete 0 1;
            FAppend 0 [4]; FReadAt 1 1 10; FOpen 0 2; FClose 1; FReadAt 2 0 2; FList 0; FAtomicCreate 0 1 [9]; FList 0] in
  fouts ref_step fs_init h =
    [OUnit; OFd 0; OUnit; OFd 1; ONoFd; OBool true; OUnit; OUnit; OBytes [2;3;4]; OFd 2; OUnit; OBytes [1;2];
     ONames [2%nat]; OUnit; ONames [1%nat;2%nat]]
  /\ valid_history h /\ fouts memfs_step memfs_init h = fouts ref_step fs_init h.
Proof.
  cbv zeta. split; [vm_compute; reflexivity|]. split; [|vm_compute; reflexivity].
  unfold valid_history. vm_compute. intuition discriminate.
Qed.
