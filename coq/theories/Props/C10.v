(* C10 — Concurrent disk operations are linearizable per block.
   Property theorems only. *)
From Coq Require Import List ZArith Lia.
From GV Require Import Disk.Disk Disk.DiskProofs Conc.Lin Conc.SingleLock Conc.MemDiskConc
                       Conc.LinCheck Conc.DiskLin Conc.Unlocked.
Import ListNotations.
Open Scope Z_scope.

(* The generic theorem: any object whose operations run their micro-steps
   between acquire and release of one mutex / RW-lock (readers pure), or take
   no lock and return a state-independent value, is linearizable w.r.t. its
   atomic sequential object: every thread count, client and interleaving. *)
Theorem C10_single_lock_linearizable :
  forall (St L Op Res : Type) (md : Op -> mode) (prog : Op -> list (@mstep St L)) (init : Op -> L)
         (result : Op -> L -> Res),
    (forall o, md o = MR -> Forall pure (prog o)) -> (forall o, md o = MFree -> prog o = []) ->
    forall s0 c, reachable md prog init result s0 c ->
                 linearizable (seq_atomic prog init result) s0 (history (tr c)).
Proof. exact @single_lock_linearizable. Qed.
Print Assumptions C10_single_lock_linearizable.

(* MemDisk: a block copy is one micro-step PER BYTE, so torn blocks are
   expressible; with the code's lock modes every reachable history is
   linearizable w.r.t. the register-array specification of C09: each read
   returns one whole block written by a single write, in an order respecting
   real time. *)
Theorem C10_memdisk_linearizable : forall bs n, 0 <= n -> forall c,
  reachable (md bs) (prog bs n) (init bs) (result bs n) (mem_init bs n) c ->
  (forall t o, In (HInv t o) (history (tr c)) -> op_ok bs o) ->
  linearizable (regs_step bs) (regs_init bs n) (history (tr c)).
Proof. exact memdisk_linearizable. Qed.
Print Assumptions C10_memdisk_linearizable.

(* the lock matters: without it a torn read is reachable, and that history is
   not linearizable *)
Theorem C10_unlocked_is_torn :
  torn_history = [HResp 0%nat RUnit; HResp 1%nat (RBlock [1; 0]); HInv 1%nat (ORead 0); HInv 0%nat (OWrite 0 [1; 1])]
  /\ ~ linearizable (regs_step 2) (regs_init 2 1) torn_history.
Proof. exact (conj unlocked_read_is_torn unlocked_not_linearizable). Qed.
Print Assumptions C10_unlocked_is_torn.

(* recorded histories are judged by a checker that is sound and complete *)
Theorem C10_checker_decides : forall bs n ts h, threads_in ts h ->
  (disk_lin_check bs n ts h = true <-> linearizable (regs_step bs) (regs_init bs n) (rev h)).
Proof. exact disk_lin_check_correct. Qed.
Print Assumptions C10_checker_decides.

(* File-backed disk, model level: operations on distinct addresses commute
   (neither the other's result nor the final file depends on their order) ... *)
Theorem C10_file_distinct_addresses_commute : forall bs d s o1 o2,
  Rfile bs d s -> addr_ok o1 -> addr_ok o2 ->
  outs (file_step bs) d [o1; o2] = outs (regs_step bs) s [o1; o2] /\
  outs (file_step bs) d [o2; o1] = outs (regs_step bs) s [o2; o1].
Proof.
  intros bs d s o1 o2 HR H1 H2. split; apply file_run; auto.
Qed.
Print Assumptions C10_file_distinct_addresses_commute.

(* ... and a sequence of operations ordered in real time is observed in that
   order: it is exactly the sequential register semantics (C09_file_refines). *)
Theorem C10_file_realtime_order : forall bs n h, 0 <= n -> n * Z.of_nat bs < 2 ^ 64 -> Forall addr_ok h ->
  outs (file_step bs) (file_init bs n) h = outs (regs_step bs) (regs_init bs n) h.
Proof. exact file_refines. Qed.
Print Assumptions C10_file_realtime_order.

(* Non-vacuity: a reachable concurrent configuration of the locked system. *)
Example C10_example_reachable :
  exists c, reachable (md 2) (prog 2 1) (init 2) (result 2 1) (mem_init 2 1) c /\
            history (tr c) = [HInv 1%nat (ORead 0); HInv 0%nat (OWrite 0 [1; 1])].
Proof.
  eexists. split.
  - eapply r_step; [eapply r_step; [apply r_init|]|].
    + apply (s_invoke _ _ _ _ _ 0%nat (OWrite 0 [1; 1])). reflexivity.
    + apply (s_invoke _ _ _ _ _ 1%nat (ORead 0)). reflexivity.
  - reflexivity.
Qed.
