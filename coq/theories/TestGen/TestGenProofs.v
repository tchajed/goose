From Coq Require Import String Ascii List Bool.
From GV Require Import TestGen.TestGen.
Import ListNotations.
Open Scope string_scope.

Lemma strip_spec p : forall s r, strip p s = Some r <-> s = p ++ r.
Proof.
  induction p as [|a p IH]; intros s r; cbn [strip String.append].
  - split; [intros H; injection H as <-; reflexivity|intros ->; reflexivity].
  - destruct s as [|b s]; [split; [discriminate|discriminate]|].
    destruct (Ascii.eqb_spec a b) as [->|Hne].
    + rewrite IH. split; [intros ->; reflexivity|intros H; injection H; auto].
    + split; [discriminate|]. intros H. injection H as H1 _. congruence.
Qed.

Lemma strip_app p r : strip p (p ++ r) = Some r.
Proof. now apply strip_spec. Qed.

Lemma app_assoc' (a b c : string) : (a ++ b) ++ c = a ++ (b ++ c).
Proof. induction a as [|x a IH]; cbn; [reflexivity|now rewrite IH]. Qed.

(* stripping a prefix made of name characters from  name ++ "(" ++ rest  only looks at name *)
Lemma strip_name_paren p : all_namechars p = true -> forall name rest,
  strip p (name ++ "(" ++ rest) = match strip p name with Some r => Some (r ++ "(" ++ rest) | None => None end.
Proof.
  induction p as [|a p IH]; intros Hp name rest; cbn [strip]; [reflexivity|].
  cbn in Hp. apply andb_prop in Hp as [Ha Hp].
  destruct name as [|b name]; cbn [String.append].
  - (* name exhausted: the next character is "(" which is not a name character *)
    destruct (Ascii.eqb_spec a "("%char) as [->|Hne]; [discriminate Ha|reflexivity].
  - destruct (Ascii.eqb a b); [now apply IH|reflexivity].
Qed.

Lemma span_name_paren n : all_namechars n = true -> forall rest, span_name (n ++ "(" ++ rest) = (n, "(" ++ rest).
Proof.
  induction n as [|c n IH]; intros Hn rest; [reflexivity|].
  cbn in Hn. apply andb_prop in Hn as [Hc Hn]. change (String c n ++ "(" ++ rest) with (String c (n ++ "(" ++ rest)).
  cbn [span_name]. rewrite Hc, (IH Hn rest). reflexivity.
Qed.

Lemma all_namechars_strip {p name r} : all_namechars name = true -> strip p name = Some r -> all_namechars r = true.
Proof.
  revert name r. induction p as [|a p IH]; intros name r Hn H; cbn [strip] in H.
  - injection H as <-. exact Hn.
  - destruct name as [|b name]; [discriminate|]. cbn in Hn. apply andb_prop in Hn as [_ Hn].
    destruct (Ascii.eqb a b); [eapply IH; eauto|discriminate].
Qed.

(* the header line of a top-level function yields exactly the
   test its name denotes *)
Theorem scan_func_line name rest : all_namechars name = true ->
  scan_line ("func " ++ name ++ "(" ++ rest) = test_of_name name.
Proof.
  intros Hn. unfold scan_line, test_of_name.
  change ("func " ++ name ++ "(" ++ rest) with ("func" ++ String " " (name ++ "(" ++ rest)).
  rewrite strip_app. change (is_space " ") with true. cbv iota.
  rewrite (strip_name_paren "failing_" eq_refl).
  destruct (strip "failing_" name) as [r|] eqn:Ef.
  - pose proof (all_namechars_strip Hn Ef) as Hr.
    rewrite (strip_name_paren "test" eq_refl).
    destruct (strip "test" r) as [n|] eqn:Et; [|reflexivity].
    pose proof (all_namechars_strip Hr Et) as Hnn.
    rewrite (span_name_paren n Hnn). destruct n as [|c n]; [reflexivity|].
    cbn [String.append]. rewrite Hnn. reflexivity.
  - rewrite (strip_name_paren "test" eq_refl).
    destruct (strip "test" name) as [n|] eqn:Et; [|reflexivity].
    pose proof (all_namechars_strip Hn Et) as Hnn.
    rewrite (span_name_paren n Hnn). destruct n as [|c n]; [reflexivity|].
    cbn [String.append]. rewrite Hnn. reflexivity.
Qed.

Lemma scan_method_line r : scan_line ("func (" ++ r) = None.
Proof. reflexivity. Qed.

Lemma scan_quiet_line l : quiet_line l = true -> scan_line l = None.
Proof.
  unfold quiet_line, scan_line. destruct (strip "func" l) as [[|c r]|]; auto.
  intros H. apply negb_true_iff in H. now rewrite H.
Qed.

Lemma tests_quiet ls : forallb quiet_line ls = true ->
  flat_map (fun l => match scan_line l with Some t => [t] | None => [] end) ls = [].
Proof.
  induction ls as [|l ls IH]; intros H; [reflexivity|]. cbn in H. apply andb_prop in H as [H1 H2].
  cbn [flat_map]. now rewrite (scan_quiet_line l H1), IH.
Qed.

Definition idents_ok (ds : list decl) : bool :=
  forallb (fun d => match d with DFunc name _ _ => all_namechars name | _ => true end) ds.

(* exactly one test per test function, in source order, nothing for anything else *)
Theorem one_test_per_function fname ds : forallb decl_ok ds = true -> idents_ok ds = true ->
  tests_of_file (fname, flat_map render_decl ds) = tests_of_decls ds.
Proof.
  unfold tests_of_file. cbn [snd]. induction ds as [|d ds IH]; intros Hok Hid; [reflexivity|].
  cbn in Hok, Hid. apply andb_prop in Hok as [Hd Hok]. apply andb_prop in Hid as [Hi Hid].
  cbn [flat_map]. rewrite flat_map_app, IH by assumption.
  unfold tests_of_decls at 2. cbn [flat_map]. fold (tests_of_decls ds). f_equal.
  destruct d as [name rest body|r body|ls]; cbn [render_decl decl_ok flat_map] in *.
  - rewrite (scan_func_line name rest Hi), (tests_quiet body Hd), app_nil_r. reflexivity.
  - rewrite scan_method_line, (tests_quiet body Hd). reflexivity.
  - apply tests_quiet. exact Hd.
Qed.

(* files: source order is preserved, skipped files contribute nothing *)
Theorem tests_of_dir_app d1 d2 : tests_of_dir (d1 ++ d2)%list = (tests_of_dir d1 ++ tests_of_dir d2)%list.
Proof. unfold tests_of_dir. now rewrite filter_app, flat_map_app. Qed.

Theorem skipped_file_ignored name ls d : skip_file name = true -> tests_of_dir ((name, ls) :: d) = tests_of_dir d.
Proof. intros H. unfold tests_of_dir. cbn [filter fst]. now rewrite H. Qed.

Theorem kept_file_scanned name ls d : skip_file name = false ->
  tests_of_dir ((name, ls) :: d) = (tests_of_file (name, ls) ++ tests_of_dir d)%list.
Proof. intros H. unfold tests_of_dir. cbn [filter fst]. rewrite H. reflexivity. Qed.

(* both generators emit the tests [tests_of_dir d], in that order *)
Definition coq_tests (d : list file) : list (bool * string) :=
  flat_map tests_of_file (filter (fun f => negb (skip_file (fst f))) d).

Theorem generators_agree d : coq_tests d = tests_of_dir d.
Proof. reflexivity. Qed.

Lemma concat_str_app a b : concat_str (a ++ b)%list = concat_str a ++ concat_str b.
Proof.
  induction a as [|x a IH]; [reflexivity|]. cbn [List.app concat_str fold_right].
  fold (concat_str (a ++ b)%list) (concat_str a). now rewrite IH, app_assoc'.
Qed.

(* the Coq output is the header followed, per kept file, by its comment line,
   one Example line per test of that file and a blank line *)
Theorem gen_coq_structure d :
  gen_coq d = coq_header ++
    concat_str (map (fun f => "(* " ++ fst f ++ " *)" ++ nl ++ concat_str (map coq_test (tests_of_file f)) ++ nl)
                    (filter (fun f => negb (skip_file (fst f))) d)).
Proof. reflexivity. Qed.

(* ---------------------------------------------------------------- the Go file uses what it imports *)
Fixpoint contains (pat s : string) : bool :=
  String.prefix pat s || match s with EmptyString => false | String _ t => contains pat t end.

Lemma contains_app_r pat a b : contains pat b = true -> contains pat (a ++ b) = true.
Proof.
  intros Hb. induction a as [|c a IH]; [exact Hb|]. cbn [String.append contains]. rewrite IH. apply Bool.orb_true_r.
Qed.

Lemma go_test_mentions_disk t : contains "disk.Init" (go_test t) = true.
Proof. destruct t as [f n]. unfold go_test. do 8 apply contains_app_r. reflexivity. Qed.

Lemma go_file_without_tests d : tests_of_dir d = [] ->
  gen_go d = (go_header_no_tests ++ go_footer)%string /\ contains "disk" (gen_go d) = false.
Proof. unfold gen_go. intros ->. split; [reflexivity|vm_compute; reflexivity]. Qed.

Lemma go_file_with_tests d : tests_of_dir d <> [] ->
  gen_go d = (go_header ++ concat_str (map go_test (tests_of_dir d)) ++ go_footer)%string /\
  forall t, In t (tests_of_dir d) -> contains "disk.Init" (go_test t) = true.
Proof.
  intros H. split; [|intros t _; apply go_test_mentions_disk].
  unfold gen_go. destruct (tests_of_dir d); [congruence|reflexivity].
Qed.
