(* A small model of the part of POSIX that DirFs.AtomicCreate relies on, and the
   interpretation of AtomicCreate's regenerated statement skeleton in it.

   State: a flat namespace name -> inode, per inode the volatile contents and
   the contents made durable by the last fsync.  Failure modes:
     kill        the process dies between two system calls; kernel state survives
     power loss  only the namespace and the durable contents survive
   Assumptions of the power-loss clause (trusted, see DESIGN.md §6): fsync(fd)
   makes that inode's bytes durable; rename is atomic and is not reordered
   before an earlier fsync of the renamed inode. *)
From Coq Require Import String List Bool Arith.
From GV Require Import Base.Skel Fs.Fs Disk.Faults.
Import ListNotations.
Local Open Scope list_scope.
Local Open Scope nat_scope.

Record pst := {
  pnames : list (nat * nat);      (* name -> inode *)
  pvol : list (nat * bytes);      (* inode -> contents (page cache) *)
  pdur : list (nat * bytes);      (* inode -> contents at the last fsync *)
  pnext : nat                     (* inode numbers >= pnext are unused *)
}.

(* the state of one AtomicCreate call: its descriptor and file offset *)
Record ploc := { pfd : option nat; ppos : nat }.
Definition ploc0 : ploc := {| pfd := None; ppos := 0 |}.

Inductive pop :=
| POpen (trunc : bool)          (* openat(root, tmp, O_CREAT|O_WRONLY [|O_TRUNC]) *)
| PWrite (chunk : bytes)        (* write(fd, chunk): all of chunk is written at the offset *)
| PFsync                        (* fsync(fd) *)
| PRename.                      (* renameat(root, tmp, root, dst) *)

Definition vol_of (i : nat) (s : pst) : bytes :=
  match alookup Nat.eqb i (pvol s) with Some b => b | None => [] end.

Definition overwrite (old : bytes) (pos : nat) (c : bytes) : bytes :=
  firstn pos old ++ c ++ skipn (pos + length c) old.

Section Call.
Variables tmp dst : nat.

Definition pstep (o : pop) (s : pst) (l : ploc) : pst * ploc :=
  match o with
  | POpen trunc =>
      match alookup Nat.eqb tmp (pnames s) with
      | Some i =>
          ({| pnames := pnames s;
              pvol := if trunc then aset Nat.eqb i [] (pvol s) else pvol s;
              pdur := pdur s; pnext := pnext s |},
           {| pfd := Some i; ppos := 0 |})
      | None =>
          let i := pnext s in
          ({| pnames := aset Nat.eqb tmp i (pnames s); pvol := aset Nat.eqb i [] (pvol s);
              pdur := pdur s; pnext := S i |},
           {| pfd := Some i; ppos := 0 |})
      end
  | PWrite c =>
      match pfd l with
      | Some i => ({| pnames := pnames s; pvol := aset Nat.eqb i (overwrite (vol_of i s) (ppos l) c) (pvol s);
                      pdur := pdur s; pnext := pnext s |},
                   {| pfd := pfd l; ppos := ppos l + length c |})
      | None => (s, l)
      end
  | PFsync =>
      match pfd l with
      | Some i => ({| pnames := pnames s; pvol := pvol s; pdur := aset Nat.eqb i (vol_of i s) (pdur s);
                      pnext := pnext s |}, l)
      | None => (s, l)
      end
  | PRename =>
      match alookup Nat.eqb tmp (pnames s) with
      | Some i => ({| pnames := aset Nat.eqb dst i (aremove Nat.eqb tmp (pnames s)); pvol := pvol s;
                      pdur := pdur s; pnext := pnext s |}, l)
      | None => (s, l)
      end
  end.

Fixpoint prun (p : list pop) (s : pst) (l : ploc) : pst * ploc :=
  match p with
  | [] => (s, l)
  | o :: p' => let '(s', l') := pstep o s l in prun p' s' l'
  end.
End Call.

(* what a reader sees under a name: the volatile contents; after a power loss: the durable ones *)
Definition content (s : pst) (name : nat) : option bytes :=
  match alookup Nat.eqb name (pnames s) with Some i => Some (vol_of i s) | None => None end.
Definition durable_content (s : pst) (name : nat) : option (option bytes) :=
  match alookup Nat.eqb name (pnames s) with
  | Some i => Some (alookup Nat.eqb i (pdur s))
  | None => None
  end.

(* the canonical program: open(trunc or fresh); write all chunks; fsync; rename *)
Definition ac_prog (trunc : bool) (chunks : list bytes) : list pop :=
  POpen trunc :: map PWrite chunks ++ [PFsync; PRename].

(* well-formed kernel state: inodes in use are below pnext *)
Definition pwf (s : pst) : Prop :=
  (forall n i, alookup Nat.eqb n (pnames s) = Some i -> (i < pnext s)%nat).

(* the temp name is safe to use: unused, or (if it is a leftover) truncated on
   open and not a hard link of the destination *)
Definition safe_tmp (s : pst) (tmp dst : nat) (trunc : bool) : Prop :=
  match alookup Nat.eqb tmp (pnames s) with
  | None => True
  | Some i => trunc = true /\ alookup Nat.eqb dst (pnames s) <> Some i
  end.

(* ---------------------------------------------------------------- interpretation of the skeleton *)
(* top-level system calls of a body, the write loop recognised as such *)
Inductive acstep := AOpen (trunc creat : bool) (name : string) | AWriteLoop (ok : bool) | AFsync (arg : string)
                  | ARename (src dstexpr : string) | AOtherSys (c : string).

Definition write_loop_ok (cond : string) (body : list sk) : bool :=
  String.eqb cond "len(data) > 0" &&
  match body with
  | [SCall ["n"; "err"] "unix.Write" ["fd"; "data"]; SIf _ _ _; SAssign ["data"] ["data[n:]"]] => true
  | _ => false
  end.

Fixpoint ac_steps (ss : list sk) : list acstep :=
  match ss with
  | [] => []
  | SCall _ "unix.Openat" [_; name; flags; _] :: t =>
      AOpen (contains "O_TRUNC" flags) (contains "O_CREAT" flags) name :: ac_steps t
  | SCall _ "unix.Fsync" [a] :: t => AFsync a :: ac_steps t
  | SCall _ "unix.Renameat" [_; src; _; d] :: t => ARename src d :: ac_steps t
  | SFor cond body :: t =>
      if existsb (fun s => match s with SCall _ c _ => prefix "unix." c | _ => false end) body
      then AWriteLoop (write_loop_ok cond body) :: ac_steps t else ac_steps t
  | SCall _ c _ :: t => if prefix "unix." c then AOtherSys c :: ac_steps t else ac_steps t
  | _ :: t => ac_steps t
  end.

(* the POSIX program a body denotes, for a given chunking of the data by the write loop *)
Definition prog_of (ss : list sk) (chunks : list bytes) : list pop :=
  flat_map (fun a => match a with
                     | AOpen trunc _ _ => [POpen trunc]
                     | AWriteLoop _ => map PWrite chunks
                     | AFsync _ => [PFsync]
                     | ARename _ _ => [PRename]
                     | AOtherSys _ => []
                     end) (ac_steps ss).

(* the shape that makes AtomicCreate atomic, durable-before-visible and robust:
   open the temp with O_CREAT|O_TRUNC, write ALL the data, fsync that
   descriptor, rename the temp onto path.Join(dir, fname) — in this order, every
   error checked (surfaces), and the temp name unique per call *)
Definition unique_tmp_name (ss : list sk) : bool :=
  existsb (fun s => match s with
                    | SAssign ["tmpFile"] [e] => contains "os.Getpid()" e && contains "atomic.AddUint64(&tmpCounter, 1)" e
                    | SCall ["tmpFile"] _ args => any_contains "os.Getpid()" args && any_contains "atomic.AddUint64(&tmpCounter, 1)" args
                    | _ => false end) ss.

Definition atomic_create_shape (ss : list sk) : bool :=
  surfaces ss && unique_tmp_name ss &&
  match ac_steps ss with
  | [AOpen tr cr nm; AWriteLoop ok; AFsync a; ARename src d] =>
      tr && cr && String.eqb nm "tmpFile" && ok && String.eqb a "fd" && String.eqb src "tmpFile"
      && String.eqb d "path.Join(dir, fname)"
  | _ => false
  end.

Lemma shape_prog ss chunks : atomic_create_shape ss = true -> prog_of ss chunks = ac_prog true chunks.
Proof.
  unfold atomic_create_shape, prog_of. intros H. apply andb_prop in H as [_ H].
  destruct (ac_steps ss) as [|a1 l1]; [discriminate|]. destruct a1 as [tr cr nm| | | |]; try discriminate.
  destruct l1 as [|a2 l2]; [discriminate|]. destruct a2 as [|ok| | |]; try discriminate.
  destruct l2 as [|a3 l3]; [discriminate|]. destruct a3 as [| |a| |]; try discriminate.
  destruct l3 as [|a4 l4]; [discriminate|]. destruct a4 as [| | |src d|]; try discriminate.
  destruct l4; [|discriminate].
  repeat (apply andb_prop in H as [H ?]). subst tr.
  cbn [flat_map]. unfold ac_prog. now rewrite app_nil_r.
Qed.
