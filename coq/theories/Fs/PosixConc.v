(* Two concurrent AtomicCreate calls with distinct (unique) temp names: under
   EVERY interleaving of their system calls, calls for different names do not
   disturb each other, and calls for the same name leave the complete data of
   one of them. *)
From Coq Require Import List Arith.
From GV Require Import Fs.Fs Fs.Posix Fs.PosixProofs.
Import ListNotations.
Local Open Scope list_scope.
Local Open Scope nat_scope.

Record call := { c_tmp : nat; c_dst : nat; c_chunks : list bytes }.
Definition c_data (c : call) : bytes := concat (c_chunks c).

(* What a step of a call leaves unchanged.  Nothing below uses it: the proofs
   take the frame from pstep_frame, which also excepts the inode behind the temp
   name. *)
Definition untouched_by (c : call) (l : ploc) (s s' : pst) : Prop :=
  (* names other than the call's temp and destination keep their inode *)
  (forall n, n <> c_tmp c -> n <> c_dst c -> alk n (pnames s') = alk n (pnames s)) /\
  (* inodes other than the call's own keep their contents *)
  (forall j, pfd l <> Some j -> j < pnext s -> vol_of j s' = vol_of j s /\ alk j (pdur s') = alk j (pdur s)) /\
  pnext s <= pnext s'.

(* where a call stands: its temp file is reachable under its temp name only *)
Definition call_inv (c : call) : list pop -> ploc -> pst -> Prop :=
  phase (c_tmp c) (fun n => n <> c_tmp c) true (c_chunks c).

Notation cstep c := (pstep (c_tmp c) (c_dst c)).

(* a call's own next step moves it to its next phase; the last step makes the data visible *)
Lemma own_step c o p l s : call_inv c (o :: p) l s -> pwf s ->
  call_inv c p (snd (cstep c o s l)) (fst (cstep c o s l)) /\
  (p = [] -> content (fst (cstep c o s l)) (c_dst c) = Some (c_data c)).
Proof.
  intros Hc Hwf. destruct (phase_step _ (c_dst c) _ _ _ (fun n H => H) o p l s Hc Hwf) as [Hc' Hlast].
  split; [exact Hc'|]. intros E. now apply Hlast.
Qed.

(* a step of call Y leaves call X where it was *)
Lemma other_step cx cy o px lx py ly s :
  call_inv cy (o :: py) ly s -> call_inv cx px lx s -> pwf s ->
  c_tmp cx <> c_tmp cy -> c_tmp cx <> c_dst cy ->
  call_inv cx px lx (fst (cstep cy o s ly)).
Proof.
  intros Hy Hx Hwf Htt Htd.
  destruct (pstep_frame (c_tmp cy) (c_dst cy) o s ly) as (Hnames & _).
  specialize (Hnames (c_tmp cx) Htt (or_introl Htd)). set (s' := fst (cstep cy o s ly)) in *.
  assert (Hkeep : forall i, alk (c_tmp cx) (pnames s) = Some i -> excl (fun n => n <> c_tmp cx) i s ->
            vol_of i s' = vol_of i s /\ alk i (pdur s') = alk i (pdur s) /\ excl (fun n => n <> c_tmp cx) i s').
  { intros i Ht He.
    destruct (protected_untouched _ (c_dst cy) _ _ _ o py ly s (c_tmp cx) i Hy Hwf Htt Ht) as (Hv & Hd & Hnew).
    split; [exact Hv|]. split; [exact Hd|]. intros n Hn Hi. exact (He n Hn (Hnew n Hi)). }
  destruct Hx as [Hp Hl Hs|i w cs Hp Hw Hfd Hpos Hv Ht He|i Hp Hfd Hv Hd Ht He|Hp].
  - apply ph_start; auto. rewrite Hnames. intros i Ht. destruct (Hs i Ht) as [_ He].
    split; [reflexivity|]. now apply Hkeep.
  - destruct (Hkeep i Ht He) as (Hv' & Hd' & He'). apply (ph_writing _ _ _ _ _ _ _ i w cs); auto; congruence.
  - destruct (Hkeep i Ht He) as (Hv' & Hd' & He'). apply (ph_synced _ _ _ _ _ _ _ i); auto; congruence.
  - now apply ph_done.
Qed.

(* once call X is complete, its destination holds its data — until (possibly)
   the other call, creating the SAME name, completes and replaces it *)
Definition post (cx cy : call) (py : list pop) (s : pst) : Prop :=
  content s (c_dst cx) = Some (c_data cx) \/
  (c_dst cx = c_dst cy /\ py = [] /\ content s (c_dst cx) = Some (c_data cy)).

Lemma post_step cx cy o py ly s :
  call_inv cy (o :: py) ly s -> pwf s -> c_tmp cy <> c_dst cx ->
  post cx cy (o :: py) s -> post cx cy py (fst (cstep cy o s ly)).
Proof.
  intros Hy Hwf Hdt [Hc|(_ & Hnil & _)]; [|discriminate].
  assert (Hkeep : c_dst cx <> c_dst cy \/ o <> PRename -> post cx cy py (fst (cstep cy o s ly))).
  { intros H. left. rewrite <- Hc.
    apply (protected_view _ (c_dst cy) _ _ _ (fun n Hn => Hn) o py ly s (c_dst cx) Hy Hwf (not_eq_sym Hdt) H). }
  destruct o as [tr|c| |]; [apply Hkeep; right; discriminate..|].
  destruct (Nat.eq_dec (c_dst cx) (c_dst cy)) as [E|E]; [|apply Hkeep; now left].
  (* Y's rename replaces the file *)
  assert (Hpy : py = []) by (eapply phase_rename_last; exact Hy).
  right. rewrite E. split; [reflexivity|]. split; [exact Hpy|]. now apply (own_step cy PRename py ly s).
Qed.

(* what the pair of calls maintains about call X: where it stands, and its result once it is complete *)
Definition side (cx cy : call) (px : list pop) (lx : ploc) (py : list pop) (s : pst) : Prop :=
  call_inv cx px lx s /\ (px = [] -> post cx cy py s).

Lemma side_step cx cy o px lx py ly s :
  c_tmp cy <> c_tmp cx -> c_tmp cy <> c_dst cx -> c_tmp cx <> c_dst cy ->
  pwf s -> side cx cy (o :: px) lx py s -> side cy cx py ly (o :: px) s ->
  let s' := fst (cstep cx o s lx) in
  pwf s' /\ side cx cy px (snd (cstep cx o s lx)) py s' /\ side cy cx py ly px s'.
Proof.
  intros Htt Htd Hdt Hwf [Hx _] [Hy Hpost]. destruct (own_step cx o px lx s Hx Hwf) as [Hx' Hlast].
  split; [now apply pwf_step|]. split; split.
  - exact Hx'.
  - intros E. left. now apply Hlast.
  - now apply (other_step cy cx o py ly px lx).
  - intros E. now apply (post_step cy cx o px lx), Hpost.
Qed.

(* ---------------------------------------------------------------- all interleavings *)
Section Two.
Variables ca cb : call.

Record cfg2 := { g_s : pst; g_pa : list pop; g_la : ploc; g_pb : list pop; g_lb : ploc }.

(* the scheduler picks which call performs its next system call *)
Definition step2 (pick_a : bool) (g : cfg2) : cfg2 :=
  if pick_a then
    match g_pa g with
    | [] => g
    | o :: pa' => let '(s', la') := pstep (c_tmp ca) (c_dst ca) o (g_s g) (g_la g) in
                  {| g_s := s'; g_pa := pa'; g_la := la'; g_pb := g_pb g; g_lb := g_lb g |}
    end
  else
    match g_pb g with
    | [] => g
    | o :: pb' => let '(s', lb') := pstep (c_tmp cb) (c_dst cb) o (g_s g) (g_lb g) in
                  {| g_s := s'; g_pa := g_pa g; g_la := g_la g; g_pb := pb'; g_lb := lb' |}
    end.

Definition run2 (sched : list bool) (g : cfg2) : cfg2 := fold_left (fun g b => step2 b g) sched g.

Hypothesis tmps_distinct : c_tmp ca <> c_tmp cb.
Hypothesis ta_db : c_tmp ca <> c_dst cb.
Hypothesis tb_da : c_tmp cb <> c_dst ca.

Definition inv2 (g : cfg2) : Prop :=
  pwf (g_s g) /\ side ca cb (g_pa g) (g_la g) (g_pb g) (g_s g) /\ side cb ca (g_pb g) (g_lb g) (g_pa g) (g_s g).

Lemma inv2_step b g : inv2 g -> inv2 (step2 b g).
Proof.
  intros (Hwf & Ha & Hb). destruct b; cbn [step2].
  - destruct (g_pa g) as [|o pa'] eqn:Epa; [unfold inv2; rewrite Epa; auto|].
    destruct (side_step ca cb o pa' (g_la g) (g_pb g) (g_lb g) (g_s g)
                (not_eq_sym tmps_distinct) tb_da ta_db Hwf Ha Hb) as (Hwf' & Ha' & Hb').
    destruct (pstep (c_tmp ca) (c_dst ca) o (g_s g) (g_la g)). exact (conj Hwf' (conj Ha' Hb')).
  - destruct (g_pb g) as [|o pb'] eqn:Epb; [unfold inv2; rewrite Epb; auto|].
    destruct (side_step cb ca o pb' (g_lb g) (g_pa g) (g_la g) (g_s g)
                tmps_distinct ta_db tb_da Hwf Hb Ha) as (Hwf' & Hb' & Ha').
    destruct (pstep (c_tmp cb) (c_dst cb) o (g_s g) (g_lb g)). exact (conj Hwf' (conj Ha' Hb')).
Qed.

Lemma inv2_run sched : forall g, inv2 g -> inv2 (run2 sched g).
Proof. induction sched as [|b sc IH]; intros g Hg; [exact Hg|]. cbn [run2 fold_left]. apply IH, inv2_step, Hg. Qed.

Definition start2 (s : pst) : cfg2 :=
  {| g_s := s; g_pa := ac_prog true (c_chunks ca); g_la := ploc0; g_pb := ac_prog true (c_chunks cb); g_lb := ploc0 |}.

Lemma inv2_start s : pwf s -> alk (c_tmp ca) (pnames s) = None -> alk (c_tmp cb) (pnames s) = None -> inv2 (start2 s).
Proof.
  intros Hwf Ha Hb. split; [exact Hwf|].
  split; (split; [apply ph_start; auto; cbn [start2 g_s]; congruence|discriminate]).
Qed.

(* For every kernel state in which the two (unique) temp names are
   unused and EVERY interleaving of the two calls' system calls, once both
   calls have completed each destination holds exactly its call's data — or, if
   both calls create the same name, the complete data of one of them. *)
Theorem two_calls_any_interleaving s sched :
  pwf s -> alk (c_tmp ca) (pnames s) = None -> alk (c_tmp cb) (pnames s) = None ->
  let g := run2 sched (start2 s) in
  g_pa g = [] -> g_pb g = [] ->
  (content (g_s g) (c_dst ca) = Some (c_data ca) \/
   (c_dst ca = c_dst cb /\ content (g_s g) (c_dst ca) = Some (c_data cb))) /\
  (content (g_s g) (c_dst cb) = Some (c_data cb) \/
   (c_dst cb = c_dst ca /\ content (g_s g) (c_dst cb) = Some (c_data ca))).
Proof.
  intros Hwf Ha Hb g Hpa Hpb.
  destruct (inv2_run sched (start2 s) (inv2_start s Hwf Ha Hb)) as (_ & [_ HA] & [_ HB]).
  fold g in HA, HB. split.
  - destruct (HA Hpa) as [H|(H1 & _ & H3)]; auto.
  - destruct (HB Hpb) as [H|(H1 & _ & H3)]; auto.
Qed.

Corollary two_calls_different_names s sched :
  pwf s -> alk (c_tmp ca) (pnames s) = None -> alk (c_tmp cb) (pnames s) = None ->
  c_dst ca <> c_dst cb ->
  let g := run2 sched (start2 s) in
  g_pa g = [] -> g_pb g = [] ->
  content (g_s g) (c_dst ca) = Some (c_data ca) /\ content (g_s g) (c_dst cb) = Some (c_data cb).
Proof.
  intros Hwf Ha Hb Hne g Hpa Hpb.
  destruct (two_calls_any_interleaving s sched Hwf Ha Hb Hpa Hpb) as [[H1|[E _]] [H2|[E' _]]]; try congruence.
  auto.
Qed.

End Two.
