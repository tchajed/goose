From Coq Require Import List ZArith Lia Bool.
From GV Require Import Fs.Fs.
Import ListNotations.
Open Scope Z_scope.

(* ---------------------------------------------------------------- association-list facts *)
Section AssocFacts.
  Context {K V : Type} {eqb : K -> K -> bool} (eqbP : forall a b, reflect (a = b) (eqb a b)).
  Implicit Type l : list (K * V).

  Lemma alookup_aremove_same k l : alookup eqb k (aremove eqb k l) = None.
  Proof.
    induction l as [|[k' v] t IH]; [reflexivity|]. cbn [aremove].
    destruct (eqb k k') eqn:E; [exact IH|]. cbn [alookup]. now rewrite E.
  Qed.

  Lemma alookup_aremove_other k k' l : k' <> k -> alookup eqb k' (aremove eqb k l) = alookup eqb k' l.
  Proof.
    intros Hne. induction l as [|[k'' v] t IH]; [reflexivity|]. cbn [aremove alookup].
    destruct (eqbP k k'') as [<-|_].
    - now destruct (eqbP k' k).
    - cbn [alookup]. now rewrite IH.
  Qed.

  Lemma alookup_aset_same k v l : alookup eqb k (aset eqb k v l) = Some v.
  Proof. unfold aset. cbn [alookup]. now destruct (eqbP k k). Qed.

  Lemma alookup_aset_other k k' v l : k' <> k -> alookup eqb k' (aset eqb k v l) = alookup eqb k' l.
  Proof.
    intros Hne. unfold aset. cbn [alookup]. destruct (eqbP k' k); [contradiction|].
    now apply alookup_aremove_other.
  Qed.

  Lemma alookup_In k v l : alookup eqb k l = Some v -> In (k, v) l.
  Proof.
    induction l as [|[k' v'] t IH]; [discriminate|]. cbn [alookup].
    destruct (eqbP k k') as [<-|_].
    - intros [= <-]. now left.
    - intros H. right. now apply IH.
  Qed.

  Lemma alookup_None_iff k l : alookup eqb k l = None <-> ~ In k (map fst l).
  Proof.
    induction l as [|[k' v'] t IH]; [cbn; tauto|]. cbn [alookup map fst In].
    destruct (eqbP k k') as [<-|Hne].
    - split; [discriminate|]. intros H. exfalso. apply H. now left.
    - rewrite IH. split.
      + intros H [E|Hin]; [congruence|auto].
      + intros H Hin. apply H. now right.
  Qed.

  Lemma keys_aremove k l x : In x (map fst (aremove eqb k l)) <-> In x (map fst l) /\ x <> k.
  Proof.
    induction l as [|[k' v'] t IH]; [cbn; tauto|]. cbn [aremove].
    destruct (eqbP k k') as [<-|Hne]; cbn [map fst In]; rewrite IH.
    - split; [intros [H Hx]; auto|]. intros [[<-|H] Hx]; [congruence|auto].
    - split; [intros [<-|[H Hx]]; auto|]. intros [[<-|H] Hx]; auto.
  Qed.

  Lemma keys_aset k v l x : In x (map fst (aset eqb k v l)) <-> x = k \/ In x (map fst l).
  Proof.
    unfold aset. cbn [map fst In]. rewrite keys_aremove. split.
    - intros [<-|[H _]]; auto.
    - intros [->|H]; [now left|]. destruct (eqbP x k); auto.
  Qed.

  Lemma NoDup_keys_aremove k l : NoDup (map fst l) -> NoDup (map fst (aremove eqb k l)).
  Proof.
    induction l as [|[k' v'] t IH]; cbn [aremove map fst]; [auto|]. intros [Hn Ht]%NoDup_cons_iff.
    destruct (eqb k k'); [auto|]. cbn [map fst]. apply NoDup_cons; [|auto].
    rewrite keys_aremove. tauto.
  Qed.

  Lemma NoDup_keys_aset k v l : NoDup (map fst l) -> NoDup (map fst (aset eqb k v l)).
  Proof.
    intros H. unfold aset. cbn [map fst]. apply NoDup_cons; [|now apply NoDup_keys_aremove].
    rewrite keys_aremove. tauto.
  Qed.

  Lemma In_aremove_inv k l x : In x (aremove eqb k l) -> In x l.
  Proof.
    induction l as [|[k' v'] t IH]; [intros []|]. cbn [aremove].
    destruct (eqb k k'); [intros H; right; now apply IH|]. intros [H|H]; [now left|right; now apply IH].
  Qed.

  Lemma In_aset_inv k v l k' v' : In (k', v') (aset eqb k v l) -> (k' = k /\ v' = v) \/ In (k', v') l.
  Proof. unfold aset. intros [[= <- <-]|H]; [now left|right]. now apply In_aremove_inv in H. Qed.

  Lemma aremove_notin k l : ~ In k (map fst l) -> aremove eqb k l = l.
  Proof.
    induction l as [|[k' v'] t IH]; [reflexivity|]. cbn [aremove map fst In]. intros H.
    destruct (eqbP k k') as [<-|_]; [exfalso; apply H; now left|].
    f_equal. apply IH. intros Hin. apply H. now right.
  Qed.

  Lemma length_aset_fresh k v l : ~ In k (map fst l) -> length (aset eqb k v l) = S (length l).
  Proof. intros H. unfold aset. cbn [length]. now rewrite aremove_notin. Qed.

  Lemma length_aremove_present k l : NoDup (map fst l) -> In k (map fst l) ->
    S (length (aremove eqb k l)) = length l.
  Proof.
    induction l as [|[k' v'] t IH]; [intros _ []|]. cbn [aremove map fst In length].
    intros [Hn Ht]%NoDup_cons_iff Hin. destruct (eqbP k k') as [<-|Hne].
    - now rewrite aremove_notin.
    - destruct Hin as [->|Hin]; [contradiction|]. cbn [length]. f_equal. now apply IH.
  Qed.

  Lemma length_aset_present k v l : NoDup (map fst l) -> In k (map fst l) ->
    length (aset eqb k v l) = length l.
  Proof. apply length_aremove_present. Qed.
End AssocFacts.

Lemma path_eqb_spec (p q : path) : reflect (p = q) (path_eqb p q).
Proof.
  destruct p as [a b], q as [c d]. unfold path_eqb; cbn [fst snd].
  destruct (Nat.eqb_spec a c), (Nat.eqb_spec b d); constructor; congruence.
Qed.

Lemma mem_nat_In x l : mem_nat x l = true <-> In x l.
Proof.
  unfold mem_nat. rewrite existsb_exists. split.
  - intros (y & Hy & E). apply Nat.eqb_eq in E. now subst.
  - intros H. exists x. split; [exact H|apply Nat.eqb_refl].
Qed.

Lemma In_keys {K V} (l : list (K * V)) k v : In (k, v) l -> In k (map fst l).
Proof. intros H. apply (in_map fst) in H. exact H. Qed.

(* ---------------------------------------------------------------- sorting = a set *)
Lemma In_insert_sorted x y l : In y (insert_sorted x l) <-> y = x \/ In y l.
Proof.
  induction l as [|z t IH]; cbn [insert_sorted].
  - cbn. split; (intros [->|[]]; now left).
  - destruct (Nat.leb x z); cbn [In].
    + split; (intros [->|H]; auto).
    + rewrite IH. split; [intros [H|[H|H]]|intros [H|[H|H]]]; auto.
Qed.

Lemma In_sort_names y l : In y (sort_names l) <-> In y l.
Proof.
  induction l as [|x t IH]; [reflexivity|]. cbn [sort_names fold_right].
  fold (sort_names t). rewrite In_insert_sorted, IH. cbn [In]. split; (intros [H|H]; auto).
Qed.

(* ---------------------------------------------------------------- ReadAt *)
Lemma read_range_length b off len :
  length (read_range b off len) = Nat.min (Z.to_nat len) (length b - Z.to_nat off).
Proof. unfold read_range. now rewrite firstn_length, skipn_length. Qed.

Lemma nth_firstn {A} (l : list A) n i d : (i < n)%nat -> nth i (firstn n l) d = nth i l d.
Proof. revert l i; induction n as [|n IH]; intros [|x l] [|i] H; simpl; try lia; auto. apply IH; lia. Qed.

Lemma nth_skipn {A} (l : list A) n i d : nth i (skipn n l) d = nth (n + i) l d.
Proof. revert l; induction n as [|n IH]; intros [|x l]; simpl; auto. now destruct i. Qed.

Lemma read_range_nth b off len i d : (i < length (read_range b off len))%nat ->
  nth i (read_range b off len) d = nth (Z.to_nat off + i) b d.
Proof.
  unfold read_range. rewrite firstn_length. intros Hi. rewrite nth_firstn by lia. apply nth_skipn.
Qed.

(* ---------------------------------------------------------------- invariants of the reference model *)
Definition ref_inv (s : fs) : Prop :=
  NoDup (map fst (ents s)) /\ NoDup (map fst (inos s)) /\ NoDup (map fst (fdt s)) /\
  (forall fd, In fd (map fst (fdt s)) -> (fd < nfd s)%nat) /\
  (forall i, In i (map fst (inos s)) -> (1 <= i <= nino s)%nat) /\
  length (inos s) = nino s /\
  (forall p i, In (p, i) (ents s) -> In i (map fst (inos s))) /\
  (forall fd i m, In (fd, (i, m)) (fdt s) -> In i (map fst (inos s))).

Lemma ref_inv_init : ref_inv fs_init.
Proof. unfold ref_inv, fs_init; cbn. repeat split; try constructor; intros; try contradiction; lia. Qed.

Create HintDb assoc.
#[local] Hint Resolve NoDup_keys_aset NoDup_keys_aremove Nat.eqb_spec path_eqb_spec : assoc.

(* In these three proofs the clauses that speak only of unchanged fields are
   closed by assumption and those about key uniqueness by the hints; the
   bullets are the clauses the change touches. *)

(* the next descriptor, opened on an existing inode: Open, and the end of Create *)
Lemma ref_inv_alloc_fd s i m : ref_inv s -> In i (map fst (inos s)) ->
  ref_inv {| dirs := dirs s; ents := ents s; inos := inos s;
             fdt := aset Nat.eqb (nfd s) (i, m) (fdt s); nfd := S (nfd s); nino := nino s |}.
Proof.
  intros (He & Hi & Hf & Hfd & Hib & Hlen & Hei & Hfi) Hin.
  unfold ref_inv; cbn [ents inos fdt nfd nino]. repeat apply conj; auto with assoc.
  - intros x [->|H]%(keys_aset Nat.eqb_spec); [lia|]. apply Hfd in H. lia.
  - intros fd j m' [[_ [= -> _]]|H]%In_aset_inv; eauto.
Qed.

(* the next inode, with contents b, bound to p: AtomicCreate, and the start of Create *)
Lemma ref_inv_new_file s p b : ref_inv s ->
  ref_inv {| dirs := dirs s; ents := aset path_eqb p (S (nino s)) (ents s);
             inos := aset Nat.eqb (S (nino s)) b (inos s); fdt := fdt s; nfd := nfd s; nino := S (nino s) |}.
Proof.
  intros (He & Hi & Hf & Hfd & Hib & Hlen & Hei & Hfi).
  assert (Hfresh : ~ In (S (nino s)) (map fst (inos s))) by (intros H; apply Hib in H; lia).
  unfold ref_inv; cbn [ents inos fdt nfd nino]. repeat apply conj; auto with assoc.
  - intros x [->|H]%(keys_aset Nat.eqb_spec); [lia|]. apply Hib in H. lia.
  - rewrite (length_aset_fresh Nat.eqb_spec) by exact Hfresh. now rewrite Hlen.
  - intros q i H. apply (keys_aset Nat.eqb_spec). apply In_aset_inv in H as [[_ ->]|H]; eauto.
  - intros fd i m H. apply (keys_aset Nat.eqb_spec). eauto.
Qed.

Lemma ref_step_inv s o : ref_inv s -> ref_inv (fst (ref_step s o)).
Proof.
  intros Hinv. pose proof Hinv as (He & Hi & Hf & Hfd & Hib & Hlen & Hei & Hfi).
  destruct o as [d|d n|fd data|fd|d n|fd off len|d n|od on nd nn|d n data|d]; cbn [ref_step].
  - now destruct (mem_nat d (dirs s)).
  - destruct (negb (mem_nat d (dirs s))); [exact Hinv|].
    destruct (alookup path_eqb (d, n) (ents s)); [exact Hinv|].
    apply (ref_inv_alloc_fd _ _ _ (ref_inv_new_file s (d, n) [] Hinv)).
    apply (keys_aset Nat.eqb_spec). now left.
  - destruct (alookup Nat.eqb fd (fdt s)) as [[i [|]]|] eqn:E; try exact Hinv.
    assert (Hin : In i (map fst (inos s))) by eapply Hfi, (alookup_In Nat.eqb_spec), E.
    assert (Hgrow : forall v x, In x (map fst (inos s)) -> In x (map fst (aset Nat.eqb i v (inos s)))).
    { intros v x H. apply (keys_aset Nat.eqb_spec). now right. }
    unfold ref_inv; cbn [fst ents inos fdt nfd nino]. repeat apply conj; auto with assoc; eauto.
    + intros x [->|H]%(keys_aset Nat.eqb_spec); auto.
    + now rewrite (length_aset_present Nat.eqb_spec).
  - destruct (alookup Nat.eqb fd (fdt s)); [|exact Hinv].
    unfold ref_inv; cbn [fst ents inos fdt nfd nino]. repeat apply conj; auto with assoc.
    + intros x [H _]%(keys_aremove Nat.eqb_spec). auto.
    + intros fd' j m H%In_aremove_inv. eauto.
  - destruct (negb (mem_nat d (dirs s))); [exact Hinv|].
    destruct (alookup path_eqb (d, n) (ents s)) as [i|] eqn:E; [|exact Hinv].
    apply (ref_inv_alloc_fd s i false Hinv). eapply Hei, (alookup_In path_eqb_spec), E.
  - now destruct (alookup Nat.eqb fd (fdt s)) as [[i [|]]|].
  - destruct (alookup path_eqb (d, n) (ents s)); [|exact Hinv].
    unfold ref_inv; cbn [fst ents inos fdt nfd nino]. repeat apply conj; auto with assoc.
    intros p j H%In_aremove_inv. eauto.
  - destruct (negb (mem_nat od (dirs s)) || negb (mem_nat nd (dirs s))); [exact Hinv|].
    destruct (alookup path_eqb (od, on) (ents s)) as [i|] eqn:E; [|exact Hinv].
    destruct (alookup path_eqb (nd, nn) (ents s)); [exact Hinv|].
    unfold ref_inv; cbn [fst ents inos fdt nfd nino]. repeat apply conj; auto with assoc.
    intros p j [[_ ->]|H]%In_aset_inv; [|eauto]. eapply Hei, (alookup_In path_eqb_spec), E.
  - destruct (negb (mem_nat d (dirs s))); [exact Hinv|]. exact (ref_inv_new_file s (d, n) data Hinv).
  - now destruct (negb (mem_nat d (dirs s))).
Qed.

(* ---------------------------------------------------------------- MemFs refines the reference model on valid histories *)
(* A MemFs state is a reference state without its inode counter, which MemFs
   recomputes as the number of inodes ([ref_inv] says they are equal); the two
   step functions then agree by computation, case by case. *)
Definition memfs_of (s : fs) : memfs :=
  {| m_dirs := dirs s; m_inodes := inos s; m_dirents := ents s; m_open := fdt s; m_nextfd := nfd s |}.

Lemma read_range_beyond b off len : Z.of_nat (length b) <= off -> read_range b off len = [].
Proof. intros H. unfold read_range. rewrite skipn_all2 by lia. apply firstn_nil. Qed.

Lemma memfs_sim s o : ref_inv s -> snd (ref_step s o) <> OInvalid ->
  memfs_step (memfs_of s) o = (memfs_of (fst (ref_step s o)), snd (ref_step s o)).
Proof.
  intros (_ & _ & _ & _ & _ & Hlen & _).
  destruct o as [d|d n|fd data|fd|d n|fd off len|d n|od on nd nn|d n data|d];
    cbn [ref_step memfs_step memfs_of m_dirs m_inodes m_dirents m_open m_nextfd]; rewrite <- ?Hlen.
  (* Delete (7th), ReadAt (6th) and Mkdir (1st) are written differently in
     mem.go (fewer checks, an early return); the other seven make the same
     tests in the same order on both sides *)
  7: destruct (alookup path_eqb (d, n) (ents s)); intros Hv; [reflexivity|now destruct Hv].
  6: { intros _. destruct (alookup Nat.eqb fd (fdt s)) as [[i [|]]|]; [reflexivity| |reflexivity].
       cbv zeta. change (m_data i (memfs_of s)) with (data_of i s).
       destruct (Z.leb_spec (Z.of_nat (length (data_of i s))) off) as [H|_]; [|reflexivity].
       now rewrite (read_range_beyond _ _ _ H). }
  1: destruct (mem_nat d (dirs s)); intros Hv; [now destruct Hv|reflexivity].
  all: intros _; repeat match goal with |- context [match ?c with _ => _ end] => destruct c end; reflexivity.
Qed.

Lemma fouts_cons {St} (step : St -> fop -> St * fout) s o h :
  fouts step s (o :: h) = snd (step s o) :: fouts step (fst (step s o)) h.
Proof.
  unfold fouts. cbn [frun]. destruct (step s o) as [s' r]. cbn [fst snd].
  destruct (frun step s' h). reflexivity.
Qed.

Lemma frun_snoc {St} (step : St -> fop -> St * fout) h o : forall s,
  frun step s (h ++ [o]) =
  (fst (step (fst (frun step s h)) o), fouts step s h ++ [snd (step (fst (frun step s h)) o)]).
Proof.
  unfold fouts. induction h as [|x h IH]; intros s; cbn [app frun fst snd].
  - now destruct (step s o).
  - destruct (step s x) as [s' r]. rewrite IH. now destruct (frun step s' h).
Qed.

Theorem memfs_refines_gen h : forall s, ref_inv s ->
  ~ In OInvalid (fouts ref_step s h) -> fouts memfs_step (memfs_of s) h = fouts ref_step s h.
Proof.
  induction h as [|o h IH]; intros s Hinv Hv; [reflexivity|].
  rewrite !fouts_cons in *.
  assert (Hv1 : snd (ref_step s o) <> OInvalid) by (intros E; apply Hv; left; now rewrite E).
  rewrite (memfs_sim s o Hinv Hv1). cbn [fst snd]. f_equal. apply IH.
  - now apply ref_step_inv.
  - intros Hin. apply Hv. now right.
Qed.

Theorem memfs_refines h : valid_history h -> fouts memfs_step memfs_init h = fouts ref_step fs_init h.
Proof. exact (memfs_refines_gen h fs_init ref_inv_init). Qed.

(* ---------------------------------------------------------------- properties of the reference model *)
Lemma ref_run_inv h : forall s, ref_inv s -> ref_inv (fst (frun ref_step s h)).
Proof.
  induction h as [|o h IH]; intros s Hs; [exact Hs|]. cbn [frun].
  pose proof (ref_step_inv s o Hs) as H1. destruct (ref_step s o) as [s' r]. cbn [fst] in H1.
  specialize (IH s' H1). destruct (frun ref_step s' h). exact IH.
Qed.

(* only Create and Open hand out a descriptor, and it is the next one *)
Lemma ref_step_OFd s o fd : snd (ref_step s o) = OFd fd ->
  fd = nfd s /\ nfd (fst (ref_step s o)) = S (nfd s) /\
  exists v, fdt (fst (ref_step s o)) = aset Nat.eqb (nfd s) v (fdt s).
Proof.
  destruct o; cbn [ref_step];
    repeat match goal with |- context [match ?c with _ => _ end] => destruct c end;
    cbn [fst snd]; try discriminate; intros [= <-]; cbn [fdt nfd]; eauto.
Qed.

(* every Create/Open yields a fresh, independent descriptor *)
Theorem ref_fresh_descriptor s o fd : ref_inv s -> snd (ref_step s o) = OFd fd ->
  alookup Nat.eqb fd (fdt s) = None /\ fd = nfd s /\ nfd (fst (ref_step s o)) = S fd /\
  (forall fd', fd' <> fd -> alookup Nat.eqb fd' (fdt (fst (ref_step s o))) = alookup Nat.eqb fd' (fdt s)).
Proof.
  intros (_ & _ & _ & Hfd & _) (-> & Hn & v & Hv)%ref_step_OFd. repeat split; [|exact Hn|].
  - apply (alookup_None_iff Nat.eqb_spec). intros Hin. apply Hfd in Hin. lia.
  - intros fd' Hne. rewrite Hv. now apply (alookup_aset_other Nat.eqb_spec).
Qed.

(* closing one descriptor leaves every other descriptor as it was *)
Theorem ref_close_independent s fd fd' : fd' <> fd ->
  alookup Nat.eqb fd' (fdt (fst (ref_step s (FClose fd)))) = alookup Nat.eqb fd' (fdt s).
Proof.
  intros Hne. cbn [ref_step]. destruct (alookup Nat.eqb fd (fdt s)); cbn [fst fdt]; [|reflexivity].
  now apply (alookup_aremove_other Nat.eqb_spec).
Qed.

(* Create fails iff the name exists (in a valid directory), and then changes nothing *)
Theorem ref_create_fails_iff s d n :
  snd (ref_step s (FCreate d n)) = ONoFd <->
  (mem_nat d (dirs s) = true /\ exists i, alookup path_eqb (d, n) (ents s) = Some i).
Proof.
  cbn [ref_step]. destruct (mem_nat d (dirs s)); cbn [negb].
  - destruct (alookup path_eqb (d, n) (ents s)) as [i|]; cbn [snd]; split.
    + intros _. split; eauto.
    + reflexivity.
    + discriminate.
    + intros [_ [i H]]. discriminate.
  - cbn [snd]. split; [discriminate|intros [H _]; discriminate].
Qed.

Theorem ref_create_fail_no_side_effect s d n :
  snd (ref_step s (FCreate d n)) = ONoFd -> fst (ref_step s (FCreate d n)) = s.
Proof.
  cbn [ref_step]. destruct (negb (mem_nat d (dirs s))); [reflexivity|].
  destruct (alookup path_eqb (d, n) (ents s)); cbn [fst snd]; [reflexivity|discriminate].
Qed.

(* hard links share contents: after a successful Link both names denote the same inode *)
Theorem ref_link_shares s od on nd nn :
  snd (ref_step s (FLink od on nd nn)) = OBool true ->
  let s' := fst (ref_step s (FLink od on nd nn)) in
  exists i, alookup path_eqb (od, on) (ents s') = Some i /\ alookup path_eqb (nd, nn) (ents s') = Some i.
Proof.
  cbn [ref_step]. destruct (negb (mem_nat od (dirs s)) || negb (mem_nat nd (dirs s))); [discriminate|].
  destruct (alookup path_eqb (od, on) (ents s)) as [i|] eqn:E1; [|discriminate].
  destruct (alookup path_eqb (nd, nn) (ents s)) eqn:E2; cbn [fst snd]; [discriminate|].
  intros _. exists i. cbn [ents]. split.
  - rewrite (alookup_aset_other path_eqb_spec); [exact E1|]. intros Heq. rewrite Heq in E1. congruence.
  - apply (alookup_aset_same path_eqb_spec).
Qed.

(* contents are per inode: appending through any descriptor of the inode is seen through every other *)
Theorem ref_read_sees_appends s fd i data fd' off len :
  alookup Nat.eqb fd (fdt s) = Some (i, true) -> alookup Nat.eqb fd' (fdt s) = Some (i, false) ->
  snd (ref_step (fst (ref_step s (FAppend fd data))) (FReadAt fd' off len)) =
  OBytes (read_range (data_of i s ++ data) off len).
Proof.
  intros H1 H2. cbn [ref_step]. rewrite H1. cbn [fst fdt]. rewrite H2. cbn [snd]. f_equal. f_equal.
  unfold data_of at 1. cbn [inos]. now rewrite (alookup_aset_same Nat.eqb_spec).
Qed.

(* a deleted file stays readable through open descriptors: Delete touches neither inodes nor descriptors *)
Theorem ref_delete_keeps_open_files s d n :
  inos (fst (ref_step s (FDelete d n))) = inos s /\ fdt (fst (ref_step s (FDelete d n))) = fdt s.
Proof. cbn [ref_step]. destruct (alookup path_eqb (d, n) (ents s)); cbn [fst]; split; reflexivity. Qed.

(* ReadAt returns exactly the bytes of [off, off+len) that exist *)
Theorem ref_readat_spec s fd i off len : alookup Nat.eqb fd (fdt s) = Some (i, false) ->
  exists b, snd (ref_step s (FReadAt fd off len)) = OBytes b /\
            length b = Nat.min (Z.to_nat len) (length (data_of i s) - Z.to_nat off) /\
            forall k d, (k < length b)%nat -> nth k b d = nth (Z.to_nat off + k) (data_of i s) d.
Proof.
  intros H. cbn [ref_step]. rewrite H. cbn [snd]. eexists. split; [reflexivity|]. split.
  - apply read_range_length.
  - intros k d. apply read_range_nth.
Qed.

(* List returns exactly the set of names in that directory *)
Theorem ref_list_spec s d : mem_nat d (dirs s) = true ->
  exists l, snd (ref_step s (FList d)) = ONames l /\
            forall n, In n l <-> exists i, alookup path_eqb (d, n) (ents s) = Some i.
Proof.
  intros Hd. cbn [ref_step]. rewrite Hd. cbn [negb snd]. eexists. split; [reflexivity|].
  intros n. unfold names_in. rewrite In_sort_names, in_map_iff. split.
  - intros ([[d' n'] i] & E & Hin). cbn [fst snd] in E. subst n'.
    apply filter_In in Hin as [Hin Hd']. cbn [fst] in Hd'. apply Nat.eqb_eq in Hd'. subst d'.
    destruct (alookup path_eqb (d, n) (ents s)) as [j|] eqn:El; [eauto|].
    exfalso. apply (alookup_None_iff path_eqb_spec) in El. apply El. exact (In_keys _ _ _ Hin).
  - intros [i Hl]. exists ((d, n), i). split; [reflexivity|]. apply filter_In. split.
    + exact (alookup_In path_eqb_spec _ _ _ Hl).
    + cbn [fst]. apply Nat.eqb_refl.
Qed.

(* AtomicCreate installs exactly data under the name, whatever was there *)
Theorem ref_atomic_create_spec s d n data : mem_nat d (dirs s) = true ->
  let s' := fst (ref_step s (FAtomicCreate d n data)) in
  exists i, alookup path_eqb (d, n) (ents s') = Some i /\ data_of i s' = data /\
            forall p, p <> (d, n) -> alookup path_eqb p (ents s') = alookup path_eqb p (ents s).
Proof.
  intros Hd. cbn [ref_step]. rewrite Hd. cbn [negb fst]. exists (S (nino s)). cbn [ents]. split; [|split].
  - apply (alookup_aset_same path_eqb_spec).
  - unfold data_of. cbn [inos]. now rewrite (alookup_aset_same Nat.eqb_spec).
  - intros p Hp. now apply (alookup_aset_other path_eqb_spec).
Qed.

(* ---------------------------------------------------------------- two-operation facts used for C14 *)
Theorem ref_create_twice s d n : mem_nat d (dirs s) = true ->
  alookup path_eqb (d, n) (ents s) = None ->
  exists fd, snd (ref_step s (FCreate d n)) = OFd fd /\
             snd (ref_step (fst (ref_step s (FCreate d n))) (FCreate d n)) = ONoFd.
Proof.
  intros Hd He. exists (nfd s). split.
  - cbn [ref_step]. now rewrite Hd, He.
  - apply ref_create_fails_iff. cbn [ref_step]. rewrite Hd, He. cbn [negb fst dirs ents].
    split; [exact Hd|]. eexists. apply (alookup_aset_same path_eqb_spec).
Qed.

Theorem ref_two_appends s fd1 fd2 i d1 d2 :
  alookup Nat.eqb fd1 (fdt s) = Some (i, true) -> alookup Nat.eqb fd2 (fdt s) = Some (i, true) ->
  data_of i (fst (ref_step (fst (ref_step s (FAppend fd1 d1))) (FAppend fd2 d2))) = (data_of i s ++ d1) ++ d2.
Proof.
  intros H1 H2. cbn [ref_step]. rewrite H1. cbn [fst fdt]. rewrite H2. cbn [fst].
  unfold data_of. cbn [inos]. now rewrite !(alookup_aset_same Nat.eqb_spec).
Qed.

Theorem ref_two_fds_distinct s o1 o2 fd1 fd2 :
  snd (ref_step s o1) = OFd fd1 -> snd (ref_step (fst (ref_step s o1)) o2) = OFd fd2 -> fd1 <> fd2.
Proof.
  intros (-> & Hn & _)%ref_step_OFd (-> & _)%ref_step_OFd. rewrite Hn. apply Nat.neq_succ_diag_r.
Qed.
