From Coq Require Import List Lia Arith.
From GV Require Import Fs.Fs Fs.FsProofs Fs.Posix.
Import ListNotations.
Local Open Scope list_scope.
Local Open Scope nat_scope.

Notation alk := (alookup Nat.eqb).
Notation aset_ := (aset Nat.eqb).

Lemma alk_set_same {V} k (v : V) l : alk k (aset_ k v l) = Some v.
Proof. apply (alookup_aset_same Nat.eqb_spec). Qed.
Lemma alk_set_other {V} k k' (v : V) l : k' <> k -> alk k' (aset_ k v l) = alk k' l.
Proof. apply (alookup_aset_other Nat.eqb_spec). Qed.
Lemma alk_rem_same {V} k (l : list (nat * V)) : alk k (aremove Nat.eqb k l) = None.
Proof. apply alookup_aremove_same. Qed.
Lemma alk_rem_other {V} k k' (l : list (nat * V)) : k' <> k -> alk k' (aremove Nat.eqb k l) = alk k' l.
Proof. apply (alookup_aremove_other Nat.eqb_spec). Qed.

Lemma vol_of_aset_same s' i b v : pvol s' = aset_ i b v -> vol_of i s' = b.
Proof. unfold vol_of. intros ->. now rewrite alk_set_same. Qed.
Lemma vol_of_aset_other s s' i b j : pvol s' = aset_ i b (pvol s) -> j <> i -> vol_of j s' = vol_of j s.
Proof. unfold vol_of. intros -> H. now rewrite alk_set_other. Qed.

Lemma vol_of_set_same i b s' v d n : pvol s' = aset_ i b v -> vol_of i {| pnames := pnames s'; pvol := aset_ i b v; pdur := d; pnext := n |} = b.
Proof. intros _. now apply (vol_of_aset_same _ i b v). Qed.

Lemma overwrite_at_end old c : overwrite old (length old) c = old ++ c.
Proof.
  unfold overwrite. rewrite firstn_all. rewrite skipn_all2 by lia. now rewrite app_nil_r.
Qed.

Section Call.
Variables tmp dst : nat.

Notation pstep := (pstep tmp dst).
Notation prun := (prun tmp dst).

(* What a system call leaves alone: names other than tmp and (at the rename) dst, and inodes in use other than the
   one behind the descriptor or behind tmp.  Where a name changes, it now has tmp's inode or a fresh one. *)
Lemma pstep_frame o s l : let s' := fst (pstep o s l) in
  (forall n, n <> tmp -> n <> dst \/ o <> PRename -> alk n (pnames s') = alk n (pnames s)) /\
  (forall j, j < pnext s -> pfd l <> Some j -> alk tmp (pnames s) <> Some j ->
     vol_of j s' = vol_of j s /\ alk j (pdur s') = alk j (pdur s)) /\
  (forall n j, alk n (pnames s') = Some j ->
     alk n (pnames s) = Some j \/ alk tmp (pnames s) = Some j \/ pnext s <= j < pnext s') /\
  pnext s <= pnext s'.
Proof.
  destruct o as [tr|c| |]; cbn [Posix.pstep].
  - destruct (alk tmp (pnames s)) as [i|] eqn:Et; cbn [fst pnames pdur pnext].
    + split; [auto|]. split; [|auto]. intros j _ _ Hj. split; [|reflexivity].
      destruct tr; [|reflexivity]. eapply vol_of_aset_other; [reflexivity|congruence].
    + split; [|split; [|split]].
      * intros n Hn _. now apply alk_set_other.
      * intros j Hj _ _. split; [|reflexivity]. eapply vol_of_aset_other; [reflexivity|lia].
      * intros n j H. destruct (Nat.eq_dec n tmp) as [->|Hn].
        -- rewrite alk_set_same in H. injection H as <-. right. right. lia.
        -- rewrite alk_set_other in H by exact Hn. now left.
      * lia.
  - destruct (pfd l) as [i|]; cbn [fst pnames pdur pnext]; [|auto 6].
    split; [auto|]. split; [|auto]. intros j _ Hj _. split; [|reflexivity].
    eapply vol_of_aset_other; [reflexivity|congruence].
  - destruct (pfd l) as [i|]; cbn [fst pnames pdur pnext]; [|auto 6].
    split; [auto|]. split; [|auto]. intros j _ Hj _. split; [reflexivity|].
    apply alk_set_other. congruence.
  - destruct (alk tmp (pnames s)) as [i|] eqn:Et; cbn [fst pnames pdur pnext]; [|auto 6].
    split; [|split; [|split]]; auto.
    + intros n Hn [Hd|Hd]; [|contradiction]. rewrite alk_set_other by exact Hd. now apply alk_rem_other.
    + intros n j H. destruct (Nat.eq_dec n dst) as [->|Hd].
      * rewrite alk_set_same in H. auto.
      * rewrite alk_set_other in H by exact Hd. destruct (Nat.eq_dec n tmp) as [->|Hn].
        -- rewrite alk_rem_same in H. discriminate.
        -- rewrite alk_rem_other in H by exact Hn. now left.
Qed.

Lemma pwf_step o s l : pwf s -> pwf (fst (pstep o s l)).
Proof.
  intros Hwf n j H. destruct (pstep_frame o s l) as (_ & _ & Hrev & Hmono).
  destruct (Hrev n j H) as [H'|[H'|H']]; [apply Hwf in H'; lia|apply Hwf in H'; lia|lia].
Qed.

(* an invariant indexed by the remaining program holds after every prefix *)
Lemma prun_firstn (I : list pop -> ploc -> pst -> Prop) :
  (forall o p l s, I (o :: p) l s -> I p (snd (pstep o s l)) (fst (pstep o s l))) ->
  forall k p l s, I p l s -> I (skipn k p) (snd (prun (firstn k p) s l)) (fst (prun (firstn k p) s l)).
Proof.
  intros Hstep. induction k as [|k IH]; intros [|o p] l s H; cbn [firstn skipn Posix.prun]; auto.
  apply Hstep in H. destruct (pstep o s l). now apply IH.
Qed.

Definition same_view (s s' : pst) : Prop :=
  content s' dst = content s dst /\ durable_content s' dst = durable_content s dst.

End Call.

Section Phase.
Variables (tmp dst : nat) (prot : nat -> Prop) (trunc : bool) (chunks : list bytes).
Hypothesis prot_tmp : forall n, prot n -> n <> tmp.

Notation pstep := (pstep tmp dst).

(* inode i is not linked under a protected name *)
Definition excl (i : nat) (s : pst) : Prop := forall n, prot n -> alk n (pnames s) <> Some i.

(* The state of a call as a function of its remaining program p: the temp file holds what has been written
   so far, and is reachable under no protected name.  For a single call only dst is protected; among
   concurrent calls, every name but tmp. *)
Inductive phase (p : list pop) (l : ploc) (s : pst) : Prop :=
| ph_start : p = ac_prog trunc chunks -> l = ploc0 ->
    (forall i, alk tmp (pnames s) = Some i -> trunc = true /\ excl i s) -> phase p l s
| ph_writing i written cs :
    p = map PWrite cs ++ [PFsync; PRename] -> written ++ concat cs = concat chunks ->
    pfd l = Some i -> ppos l = length written -> vol_of i s = written ->
    alk tmp (pnames s) = Some i -> excl i s -> phase p l s
| ph_synced i :
    p = [PRename] -> pfd l = Some i -> vol_of i s = concat chunks -> alk i (pdur s) = Some (concat chunks) ->
    alk tmp (pnames s) = Some i -> excl i s -> phase p l s
| ph_done : p = [] -> phase p l s.

(* a call's own next step moves it to its next phase; the last step makes the data visible, and durable *)
Lemma phase_step o p l s : phase (o :: p) l s -> pwf s ->
  let s' := fst (pstep o s l) in
  phase p (snd (pstep o s l)) s' /\
  (p = [] -> content s' dst = Some (concat chunks) /\ durable_content s' dst = Some (Some (concat chunks))).
Proof.
  intros Hph Hwf.
  destruct Hph as [Hp -> Hs|i w cs Hp Hw Hfd Hpos Hv Ht He|i Hp Hfd Hv Hd Ht He|Hp]; [| | |discriminate].
  - (* open *)
    injection Hp as -> ->. split; [|intros E; destruct chunks; discriminate].
    cbn [Posix.pstep]. destruct (alk tmp (pnames s)) as [i|] eqn:Et; cbn [fst snd].
    + destruct (Hs i eq_refl) as [-> He]. apply (ph_writing _ _ _ i [] chunks); auto.
      eapply vol_of_aset_same; reflexivity.
    + apply (ph_writing _ _ _ (pnext s) [] chunks); cbn [pnames]; auto.
      * eapply vol_of_aset_same; reflexivity.
      * apply alk_set_same.
      * intros n Hn H. cbn [pnames] in H. rewrite alk_set_other in H by auto. apply Hwf in H. lia.
  - destruct cs as [|c cs]; injection Hp as -> ->; cbn [Posix.pstep]; rewrite Hfd; cbn [fst snd].
    + (* fsync *)
      split; [|discriminate]. cbn [concat] in Hw. rewrite app_nil_r in Hw. subst w.
      apply (ph_synced _ _ _ i); auto. cbn [pdur]. rewrite alk_set_same. now rewrite Hv.
    + (* write *)
      split; [|intros E; destruct cs; discriminate].
      apply (ph_writing _ _ _ i (w ++ c) cs); auto.
      * cbn [concat] in Hw. now rewrite <- app_assoc.
      * cbn [ppos]. now rewrite app_length, Hpos.
      * erewrite vol_of_aset_same by reflexivity. rewrite Hpos, <- Hv. apply overwrite_at_end.
  - (* rename *)
    injection Hp as -> ->. cbn [Posix.pstep]. rewrite Ht. cbn [fst snd]. split; [now apply ph_done|]. intros _.
    unfold content, durable_content. cbn [pnames pdur]. rewrite alk_set_same.
    split; [now rewrite <- Hv|now rewrite Hd].
Qed.

Lemma phase_rename_last p l s : phase (PRename :: p) l s -> p = [].
Proof.
  intros [Hp _ _|i w cs Hp _ _ _ _ _ _|i Hp _ _ _ _ _|Hp]; try discriminate.
  - destruct cs; discriminate.
  - now injection Hp.
Qed.

(* the call's next step does not touch an inode linked under a protected name, nor link it anywhere else *)
Lemma protected_untouched o p l s n j : phase (o :: p) l s -> pwf s -> prot n -> alk n (pnames s) = Some j ->
  let s' := fst (pstep o s l) in
  vol_of j s' = vol_of j s /\ alk j (pdur s') = alk j (pdur s) /\
  (forall m, alk m (pnames s') = Some j -> alk m (pnames s) = Some j).
Proof.
  intros Hph Hwf Hn Hj.
  assert (H : pfd l <> Some j /\ alk tmp (pnames s) <> Some j).
  { destruct Hph as [_ -> Hs|i w cs _ _ Hfd _ _ Ht He|i _ Hfd _ _ Ht He|Hp]; [| | |discriminate].
    - split; [discriminate|]. intros Ht. destruct (Hs j Ht) as [_ He]. exact (He n Hn Hj).
    - assert (i <> j) by (intros ->; exact (He n Hn Hj)). split; congruence.
    - assert (i <> j) by (intros ->; exact (He n Hn Hj)). split; congruence. }
  destruct H as [Hfd Ht]. apply Hwf in Hj. destruct (pstep_frame tmp dst o s l) as (_ & Hino & Hrev & _).
  destruct (Hino j Hj Hfd Ht) as [Hv Hd]. split; [exact Hv|]. split; [exact Hd|].
  intros m Hm. destruct (Hrev m j Hm) as [H|[H|H]]; [exact H|contradiction|lia].
Qed.

(* a protected name shows the same contents, volatile and durable, unless the step is the rename onto it *)
Lemma protected_view o p l s n : phase (o :: p) l s -> pwf s -> prot n -> n <> dst \/ o <> PRename ->
  same_view n s (fst (pstep o s l)).
Proof.
  intros Hph Hwf Hn Hnd. destruct (pstep_frame tmp dst o s l) as (Hnames & _).
  unfold same_view, content, durable_content. rewrite (Hnames n (prot_tmp n Hn) Hnd).
  destruct (alk n (pnames s)) as [j|] eqn:Ej; [|split; reflexivity].
  destruct (protected_untouched o p l s n j Hph Hwf Hn Ej) as (-> & -> & _). split; reflexivity.
Qed.

Hypothesis prot_dst : prot dst.

(* before the rename nothing is visible *)
Lemma view_kept o p l s : phase (o :: p) l s -> pwf s -> p <> [] -> same_view dst s (fst (pstep o s l)).
Proof.
  intros Hph Hwf Hp. apply (protected_view o p l s dst Hph Hwf prot_dst).
  right. intros ->. now apply Hp, (phase_rename_last p l s).
Qed.

(* s0 is the state the call started in *)
Definition seq_inv (s0 : pst) (p : list pop) (l : ploc) (s : pst) : Prop :=
  pwf s /\ phase p l s /\
  match p with
  | [] => content s dst = Some (concat chunks) /\ durable_content s dst = Some (Some (concat chunks))
  | _ => same_view dst s0 s
  end.

Lemma seq_inv_step s0 o p l s : seq_inv s0 (o :: p) l s -> seq_inv s0 p (snd (pstep o s l)) (fst (pstep o s l)).
Proof.
  intros (Hwf & Hph & [Hc Hd]). destruct (phase_step o p l s Hph Hwf) as [Hph' Hlast].
  split; [now apply pwf_step|]. split; [exact Hph'|].
  destruct p as [|o' p]; [now apply Hlast|].
  destruct (view_kept o (o' :: p) l s Hph Hwf ltac:(discriminate)) as [Hc' Hd']. split; congruence.
Qed.

End Phase.

Lemma ac_run tmp dst trunc chunks s k : tmp <> dst -> pwf s -> safe_tmp s tmp dst trunc ->
  seq_inv tmp dst (eq dst) trunc chunks s (skipn k (ac_prog trunc chunks))
    (snd (prun tmp dst (firstn k (ac_prog trunc chunks)) s ploc0))
    (fst (prun tmp dst (firstn k (ac_prog trunc chunks)) s ploc0)).
Proof.
  intros Hne Hwf Hsafe. apply prun_firstn.
  - apply seq_inv_step; [congruence|reflexivity].
  - split; [exact Hwf|]. split; [|split; reflexivity].
    apply ph_start; auto. intros i Ht. unfold safe_tmp in Hsafe. rewrite Ht in Hsafe.
    destruct Hsafe as [-> Hd]. split; [reflexivity|]. now intros n <-.
Qed.

(* A single call: at every instant, and after a crash or a failing
   system call at any step (the call stops there), dst is either as before or
   holds exactly the data — and whenever the new contents are visible they are
   already durable. *)
Theorem ac_atomic_and_durable tmp dst trunc chunks s k : tmp <> dst -> pwf s -> safe_tmp s tmp dst trunc ->
  let s' := fst (prun tmp dst (firstn k (ac_prog trunc chunks)) s ploc0) in
  same_view dst s s' \/
  (content s' dst = Some (concat chunks) /\ durable_content s' dst = Some (Some (concat chunks))).
Proof.
  intros Hne Hwf Hsafe. destruct (ac_run tmp dst trunc chunks s k Hne Hwf Hsafe) as (_ & _ & H).
  destruct (skipn k (ac_prog trunc chunks)); auto.
Qed.

Theorem ac_complete tmp dst trunc chunks s : tmp <> dst -> pwf s -> safe_tmp s tmp dst trunc ->
  let s' := fst (prun tmp dst (ac_prog trunc chunks) s ploc0) in
  content s' dst = Some (concat chunks) /\ durable_content s' dst = Some (Some (concat chunks)).
Proof.
  intros Hne Hwf Hsafe.
  destruct (ac_run tmp dst trunc chunks s (length (ac_prog trunc chunks)) Hne Hwf Hsafe) as (_ & _ & H).
  rewrite firstn_all, skipn_all in H. exact H.
Qed.

(* the same for ANY method body accepted by the shape checker (shape_complete
   states the contents only) *)
Theorem shape_atomic_and_durable ss chunks tmp dst s k : atomic_create_shape ss = true ->
  tmp <> dst -> pwf s -> safe_tmp s tmp dst true ->
  let s' := fst (prun tmp dst (firstn k (prog_of ss chunks)) s ploc0) in
  same_view dst s s' \/
  (content s' dst = Some (concat chunks) /\ durable_content s' dst = Some (Some (concat chunks))).
Proof. intros Hs. rewrite (shape_prog ss chunks Hs). apply ac_atomic_and_durable. Qed.

Theorem shape_complete ss chunks tmp dst s : atomic_create_shape ss = true ->
  tmp <> dst -> pwf s -> safe_tmp s tmp dst true ->
  content (fst (prun tmp dst (prog_of ss chunks) s ploc0)) dst = Some (concat chunks).
Proof. intros Hs Hne Hwf Hsafe. rewrite (shape_prog ss chunks Hs). now apply ac_complete. Qed.
