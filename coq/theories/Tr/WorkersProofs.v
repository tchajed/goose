From Coq Require Import List Arith Bool Permutation Lia.
From GV Require Import Tr.Workers.
Import ListNotations.

Section Proofs.
Variables A B : Type.
Variable rs : list (A * B).

Lemma length_set_nth {X} (l : list X) i x : length (set_nth l i x) = length l.
Proof. revert i; induction l; intros [|i]; cbn; auto. Qed.

Lemma nth_set_nth {X} (l : list X) i j x :
  nth_error (set_nth l i x) j = if Nat.eqb i j then (match nth_error l j with Some _ => Some x | None => None end) else nth_error l j.
Proof.
  revert i j; induction l as [|a l IH]; intros [|i] [|j]; cbn [set_nth nth_error Nat.eqb]; auto.
  all: try (destruct (Nat.eqb _ _); reflexivity).
Qed.

(* one component of the state on its own: the stores of the values vals into
   the slots js, in that order *)
Definition store {X} (vals : list X) (l : list (option X)) (j : nat) : list (option X) :=
  match nth_error vals j with Some v => set_nth l j (Some v) | None => l end.

Lemma stores_length {X} (vals : list X) : forall js l, length (fold_left (store vals) js l) = length l.
Proof.
  induction js as [|j js IH]; intros l; [reflexivity|]. cbn [fold_left]. rewrite IH.
  unfold store. destruct (nth_error vals j); [apply length_set_nth|reflexivity].
Qed.

(* slot i after any sequence of stores: written iff a store to it occurred, and then with value i *)
Lemma stores_nth {X} (vals : list X) : forall js l i,
  length l = length vals ->
  nth_error (fold_left (store vals) js l) i =
  if existsb (Nat.eqb i) js then option_map Some (nth_error vals i) else nth_error l i.
Proof.
  induction js as [|j js IH]; intros l i Hl; [reflexivity|]. cbn [fold_left existsb].
  rewrite IH by (rewrite <- Hl; apply (stores_length vals [j])).
  destruct (existsb (Nat.eqb i) js); [rewrite orb_true_r; reflexivity|]. rewrite orb_false_r.
  unfold store. destruct (Nat.eqb_spec i j) as [<-|Hne].
  - destruct (nth_error vals i) as [v|] eqn:Ev; [|apply nth_error_None in Ev; apply nth_error_None; lia].
    rewrite nth_set_nth, Nat.eqb_refl. destruct (nth_error l i) eqn:En; [reflexivity|]. apply nth_error_None in En.
    assert (i < length vals) by (apply nth_error_Some; congruence). lia.
  - destruct (nth_error vals j); [|reflexivity]. rewrite nth_set_nth. apply Nat.eqb_neq in Hne. rewrite Nat.eqb_sym, Hne. reflexivity.
Qed.

(* a schedule is two independent sequences of stores, one per component *)
Definition file_slots (sch : list ev) : list nat := flat_map (fun e => match e with WFile i => [i] | WErr _ => [] end) sch.
Definition err_slots (sch : list ev) : list nat := flat_map (fun e => match e with WErr i => [i] | WFile _ => [] end) sch.

Lemma run_split : forall sch st,
  fold_left (exec A B rs) sch st =
  (fold_left (store (map fst rs)) (file_slots sch) (fst st), fold_left (store (map snd rs)) (err_slots sch) (snd st)).
Proof.
  induction sch as [|e sch IH]; intros [fs es]; [reflexivity|]. cbn [fold_left]. rewrite IH.
  destruct e as [j|j]; cbn [exec file_slots err_slots flat_map app fold_left fst snd]; unfold store; rewrite nth_error_map;
    destruct (nth_error rs j); reflexivity.
Qed.

Lemma slots_in i : i < length rs -> forall sch, Permutation sch (all_events A B rs) ->
  existsb (Nat.eqb i) (file_slots sch) = true /\ existsb (Nat.eqb i) (err_slots sch) = true.
Proof.
  intros Hi sch Hp.
  assert (Hin : forall e, In e [WFile i; WErr i] -> In e sch).
  { intros e He. eapply Permutation_in; [apply Permutation_sym, Hp|]. apply in_flat_map. exists i. split; [apply in_seq; lia|exact He]. }
  split; apply existsb_exists; exists i; (split; [|apply Nat.eqb_refl]); apply in_flat_map.
  - exists (WFile i). split; [apply Hin|]; cbn; auto.
  - exists (WErr i). split; [apply Hin|]; cbn; auto.
Qed.

Lemma nth_error_ext {X} (l1 l2 : list X) :
  length l1 = length l2 -> (forall i, i < length l1 -> nth_error l1 i = nth_error l2 i) -> l1 = l2.
Proof.
  revert l2; induction l1 as [|a l1 IH]; intros [|b l2] Hl H; cbn in Hl; try discriminate; auto.
  f_equal.
  - specialize (H 0 ltac:(cbn; lia)). cbn in H. congruence.
  - apply IH; [lia|]. intros i Hi. apply (H (S i)). cbn. lia.
Qed.

(* every schedule of the workers' stores (any interleaving, any order within a
   worker) leaves the state of the sequential map *)
Theorem schedule_independent : forall sch,
  Permutation sch (all_events A B rs) -> run A B rs sch = joined A B rs.
Proof.
  intros sch Hp. unfold run, joined, init. rewrite run_split. cbn [fst snd].
  f_equal; apply nth_error_ext; rewrite stores_length, repeat_length; [apply eq_sym, map_length| |apply eq_sym, map_length|];
    intros i Hi; rewrite stores_nth, !nth_error_map by (rewrite repeat_length, map_length; reflexivity).
  - rewrite (proj1 (slots_in i Hi sch Hp)). destruct (nth_error rs i); reflexivity.
  - rewrite (proj2 (slots_in i Hi sch Hp)). destruct (nth_error rs i); reflexivity.
Qed.
End Proofs.
