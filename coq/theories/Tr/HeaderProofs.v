From Coq Require Import String Ascii List Bool Sorted Permutation.
From GV Require Import Tr.Header.
Import ListNotations.
Open Scope string_scope.

Lemma mem_In x l : mem x l = true <-> In x l.
Proof.
  unfold mem. rewrite existsb_exists. split.
  - intros (y & Hy & E). apply String.eqb_eq in E. now subst.
  - intros H. exists x. split; [exact H|apply String.eqb_refl].
Qed.

(* an invariant of a fold: I holds between the steps; the step for a
   establishes Q a, the later steps keep it *)
Lemma fold_left_rule {A St} (f : St -> A -> St) (I : St -> Prop) (Q : A -> St -> Prop) l :
  (forall a s, In a l -> I s -> I (f s a) /\ Q a (f s a) /\ forall b, Q b s -> Q b (f s a)) ->
  forall s, I s ->
  I (fold_left f l s) /\ (forall a, In a l -> Q a (fold_left f l s)) /\ forall b, Q b s -> Q b (fold_left f l s).
Proof.
  induction l as [|a l IH]; intros Hstep s Hs; cbn [fold_left].
  - split; [exact Hs|]. split; [intros a []|auto].
  - destruct (Hstep a s (or_introl eq_refl) Hs) as (Hs1 & Hq & K1).
    destruct (IH (fun b t Hb => Hstep b t (or_intror Hb)) (f s a) Hs1) as (Hs' & Hall & K2).
    split; [exact Hs'|]. split; [intros b [<-|Hb]; auto|auto].
Qed.

Section Visit.
Variable ffi_mapping : list (string * string).
Variable g : graph.
Notation visit := (visit ffi_mapping g).
Notation is_ffi := (is_ffi ffi_mapping).
Notation reach := (reach ffi_mapping g).

(* the FFIs recorded are those of the packages seen, one for one *)
Definition ffis_of (l : list string) : list string :=
  flat_map (fun p => match assoc p ffi_mapping with Some x => [x] | None => [] end) l.

Lemma visit_ffis fuel : forall p s, ffis s = ffis_of (seen s) -> ffis (visit fuel p s) = ffis_of (seen (visit fuel p s)).
Proof.
  induction fuel as [|f IH]; intros p s H; cbn [Header.visit]; [exact H|].
  destruct (mem p (seen s)); [exact H|].
  destruct (assoc p ffi_mapping) as [x|] eqn:Ea.
  - cbn [seen ffis ffis_of flat_map]. rewrite Ea. cbn [app]. f_equal. exact H.
  - apply (fold_left_rule (fun st q => visit f q st) (fun st => ffis st = ffis_of (seen st)) (fun _ _ => True)).
    + intros q st _ Hst. split; [apply IH, Hst|auto].
    + cbn [seen ffis ffis_of flat_map]. rewrite Ea. exact H.
Qed.

(* what one call of visit guarantees about the packages seen: with enough
   fuel, the imports of every newly seen package that is not an FFI package
   are seen as well *)
Definition closed (S T : list string) : Prop :=
  forall x, In x T -> ~ In x S -> is_ffi x = false -> incl (imports_of g x) T.

Definition good (s s' : vstate) : Prop :=
  incl (seen s) (seen s') /\ (fuel_ok s' = true -> fuel_ok s = true /\ closed (seen s) (seen s')).

Lemma good_refl s : good s s.
Proof. split; [apply incl_refl|]. intros H. split; [exact H|]. intros x Hx Hn. contradiction. Qed.

Lemma good_trans a b c : good a b -> good b c -> good a c.
Proof.
  intros [A1 A2] [B1 B2]. split; [eapply incl_tran; eauto|]. intros Hok.
  destruct (B2 Hok) as [Hb B4]. destruct (A2 Hb) as [Ha A4]. split; [exact Ha|].
  intros x Hx Hn Hf. destruct (in_dec string_dec x (seen b)) as [Hxb|Hxb].
  - eapply incl_tran; [apply A4; auto|exact B1].
  - apply B4; auto.
Qed.

Lemma visit_good fuel : forall p s, good s (visit fuel p s) /\ (fuel_ok (visit fuel p s) = true -> In p (seen (visit fuel p s))).
Proof.
  induction fuel as [|f IH]; intros p s; cbn [Header.visit].
  - split; [|discriminate]. split; [apply incl_refl|discriminate].
  - destruct (mem p (seen s)) eqn:Em; [split; [apply good_refl|intros _; now apply mem_In]|].
    assert (Hnp : ~ In p (seen s)) by (intros H; apply mem_In in H; congruence).
    destruct (assoc p ffi_mapping) as [x|] eqn:Ea.
    + split; [|intros _; now left]. split; cbn [seen fuel_ok]; [intros y Hy; now right|]. intros Hok. split; [exact Hok|].
      intros y [<-|Hy] Hn Hf; [|contradiction]. unfold Header.is_ffi in Hf. rewrite Ea in Hf. discriminate.
    + set (s1 := {| seen := p :: seen s; ffis := ffis s; fuel_ok := fuel_ok s |}).
      destruct (fold_left_rule (fun st q => visit f q st) (good s1) (fun q st => fuel_ok st = true -> In q (seen st)) (imports_of g p))
        with (s := s1) as ([G1 G2] & Hl & _).
      * intros q st _ Hst. destruct (IH q st) as [Gq Hq]. split; [eapply good_trans; eauto|]. split; [exact Hq|].
        intros b Hb Hok. destruct Gq as [S2 F2]. apply S2, Hb, F2, Hok.
      * apply good_refl.
      * split; [|intros _; apply G1; now left].
        split; [intros y Hy; apply G1; now right|]. intros Hok. destruct (G2 Hok) as [Hok1 G4]. split; [exact Hok1|].
        intros y Hy Hn Hf. destruct (string_dec y p) as [->|Hne].
        -- intros q Hq. apply Hl; assumption.
        -- apply G4; auto. intros [E|H]; [congruence|contradiction].
Qed.

(* soundness: every visited package is reachable from the root through non-FFI packages *)
Lemma visit_sound root fuel : forall p s, reach root p -> (forall x, In x (seen s) -> reach root x) ->
  forall x, In x (seen (visit fuel p s)) -> reach root x.
Proof.
  induction fuel as [|f IH]; intros p s Hp Hs; cbn [Header.visit]; [exact Hs|].
  destruct (mem p (seen s)); [exact Hs|].
  destruct (assoc p ffi_mapping) as [y|] eqn:Ea; cbn [seen].
  - intros x [<-|H]; auto.
  - apply (fold_left_rule (fun st q => visit f q st) (fun st => forall x, In x (seen st) -> reach root x) (fun _ _ => True)).
    + intros q st Hq Hst. split; [|auto]. apply IH; [|exact Hst].
      eapply reach_import; [exact Hp| |exact Hq]. unfold Header.is_ffi. now rewrite Ea.
    + cbn [seen]. intros x [<-|Hx]; auto.
Qed.

(* with enough fuel, the FFIs found are exactly the FFIs of the
   packages reachable from the root through imports of non-FFI packages *)
Theorem visit_spec fuel root f : fuel_ok (visit_root ffi_mapping g fuel root) = true ->
  (In f (ffis (visit_root ffi_mapping g fuel root)) <-> exists q, reach root q /\ assoc q ffi_mapping = Some f).
Proof.
  intros Hok. unfold visit_root in *.
  set (s0 := {| seen := []; ffis := []; fuel_ok := true |}) in *.
  destruct (visit_good fuel root s0) as [[_ G2] Hroot]. destruct (G2 Hok) as [_ Hcl].
  assert (Hseen : forall q, In q (seen (visit fuel root s0)) <-> reach root q).
  { intros q. split; [apply (visit_sound root fuel root s0); [constructor|intros y []]|].
    intros Hr. induction Hr as [|p q' Hr IH Hnf Hin]; [now apply Hroot|]. apply (Hcl p); auto. }
  rewrite (visit_ffis fuel root s0 eq_refl). unfold ffis_of. rewrite in_flat_map. split.
  - intros (q & Hq & Hf). exists q. split; [apply Hseen, Hq|].
    destruct (assoc q ffi_mapping) as [x|]; [destruct Hf as [<-|[]]; reflexivity|destruct Hf].
  - intros (q & Hr & Ha). exists q. split; [apply Hseen, Hr|]. rewrite Ha. now left.
Qed.

End Visit.

(* ---------------------------------------------------------------- the choice *)
Lemma choose_spec l :
  match choose l with
  | FfiNone => l = []
  | FfiOne x => (forall y, In y l <-> y = x)
  | FfiRefuse => exists a b, In a l /\ In b l /\ a <> b
  end.
Proof.
  unfold choose. pose proof (nodup_In string_dec l) as Hin. pose proof (NoDup_nodup string_dec l) as Hnd.
  destruct (nodup string_dec l) as [|x [|y t]] eqn:E.
  - destruct l as [|a l']; [reflexivity|]. exfalso. apply (proj2 (Hin a)). now left.
  - intros y. rewrite <- Hin. cbn. intuition.
  - exists x, y. repeat split.
    + apply Hin. now left.
    + apply Hin. right. now left.
    + inversion Hnd as [|? ? Hn _]; subst. intros ->. apply Hn. now left.
Qed.

(* ---------------------------------------------------------------- Requires: no duplicates, sorted, exactly the non-builtin imports *)
Definition le_str (a b : string) : Prop := String.leb a b = true.

Lemma insert_sorted_perm x l : Permutation (x :: l) (insert_sorted x l).
Proof.
  induction l as [|y t IH]; cbn [insert_sorted]; [reflexivity|].
  destruct (String.leb x y); [reflexivity|]. rewrite perm_swap. apply perm_skip, IH.
Qed.

Lemma sort_strings_perm l : Permutation l (sort_strings l).
Proof.
  induction l as [|x t IH]; [constructor|]. cbn [sort_strings fold_right].
  rewrite <- insert_sorted_perm. apply perm_skip, IH.
Qed.

Lemma insert_sorted_Sorted x l : Sorted le_str l -> Sorted le_str (insert_sorted x l).
Proof.
  induction 1 as [|y t Ht IH Hhd]; cbn [insert_sorted]; [repeat constructor|].
  destruct (String.leb x y) eqn:E.
  - constructor; [constructor; assumption|]. constructor. exact E.
  - constructor; [exact IH|].
    assert (Hyx : le_str y x) by (destruct (String.leb_total x y) as [H|H]; [congruence|exact H]).
    destruct t as [|z t']; cbn [insert_sorted]; [constructor; exact Hyx|].
    destruct (String.leb x z); constructor; [exact Hyx|]. inversion Hhd; assumption.
Qed.

Lemma sort_strings_Sorted l : Sorted le_str (sort_strings l).
Proof. induction l as [|x t IH]; [constructor|]. cbn [sort_strings fold_right]. now apply insert_sorted_Sorted. Qed.

Theorem print_imports_spec builtin imports :
  NoDup (print_imports builtin imports) /\ Sorted le_str (print_imports builtin imports) /\
  forall line, In line (print_imports builtin imports) <->
               exists p, In p imports /\ mem p builtin = false /\ line = require_line p.
Proof.
  unfold print_imports.
  split; [eapply Permutation_NoDup; [apply sort_strings_perm|apply NoDup_nodup]|]. split; [apply sort_strings_Sorted|].
  intros line. rewrite <- sort_strings_perm, nodup_In, in_map_iff. split.
  - intros (p & <- & Hp). apply filter_In in Hp as [Hin Hb]. exists p. repeat split; auto. now apply negb_true_iff.
  - intros (p & Hin & Hb & ->). exists p. split; [reflexivity|]. apply filter_In. split; [exact Hin|now rewrite Hb].
Qed.

(* the order and repetition of imports across files do not matter *)
Theorem print_imports_permutation builtin l l' : (forall p, In p l <-> In p l') ->
  forall line, In line (print_imports builtin l) <-> In line (print_imports builtin l').
Proof.
  intros H line. destruct (print_imports_spec builtin l) as (_ & _ & H1). destruct (print_imports_spec builtin l') as (_ & _ & H2).
  rewrite H1, H2. split; intros (p & Hp & Hb & E); exists p; repeat split; auto; now apply H.
Qed.

(* ---------------------------------------------------------------- paths *)
Lemma map_string_app f a b : map_string f (a ++ b) = map_string f a ++ map_string f b.
Proof. induction a as [|c a IH]; cbn; [reflexivity|now rewrite IH]. Qed.

(* the Require's logical path is the output file's path with '/' read as '.'
   (and without the ".v"): both are computed from the same mapped import path *)
Theorem require_matches_output_path p : is_trusted p = false ->
  require_line p = "From Goose Require " ++ map_string slash_to_dot (path_to_coq_path p) ++ "." /\
  output_path p = path_to_coq_path p ++ ".v".
Proof. intros H. unfold require_line, output_path, logical_path. rewrite H. split; reflexivity. Qed.

(* '.' and '-' are mapped to '_', every other character is kept *)
Lemma map_char_spec c : map_char c = if (Ascii.eqb c "." || Ascii.eqb c "-")%bool then "_"%char else c.
Proof. reflexivity. Qed.

Lemma path_to_coq_path_length p : String.length (path_to_coq_path p) = String.length p.
Proof. induction p as [|c p IH]; [reflexivity|]. unfold path_to_coq_path in *. cbn [map_string String.length]. now rewrite IH. Qed.
