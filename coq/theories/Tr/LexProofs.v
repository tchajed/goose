From Coq Require Import Ascii List Bool Arith.
From GV Require Import Tr.Lex.
Import ListNotations.
Local Open Scope char_scope.

Lemma is_true_eq c x : is c x = true -> x = c.
Proof. intros H. apply Ascii.eqb_eq in H. auto. Qed.

Definition pat (a b x y : ascii) : bool := is a x && is b y.
Definition po : ascii -> ascii -> bool := pat "(" "*".
Definition pc : ascii -> ascii -> bool := pat "*" ")".

Fixpoint nopair (p : ascii -> ascii -> bool) (l : list ascii) : bool :=
  match l with
  | x :: tl => match tl with y :: _ => negb (p x y) && nopair p tl | [] => true end
  | [] => true
  end.

(* the character after x is hd " " l: at the end of the list that is a space,
   and no delimiter has a space in it *)
Lemma nopair_intro {p x} y {l} : p x y = false -> hd " " l = y -> nopair p l = true -> nopair p (x :: l) = true.
Proof. intros Hp Hy Hl. destruct l as [|z r]; [reflexivity|]. cbn in Hy. subst z. cbn [nopair]. rewrite Hp. exact Hl. Qed.

Lemma nopair_inv p x l : p x " " = false -> nopair p (x :: l) = true -> p x (hd " " l) = false /\ nopair p l = true.
Proof.
  intros Hsp H. destruct l as [|y tl]; [auto|]. cbn [nopair] in H.
  apply andb_true_iff in H as [H1 H2]. apply negb_true_iff in H1. auto.
Qed.

Lemma nopair_app_quote p l : (forall x, p x """" = false) -> nopair p l = true -> nopair p (l ++ [""""]) = true.
Proof.
  intros Hp. induction l as [|x [|y tl] IH]; cbn [app nopair]; auto.
  - intros _. rewrite Hp. reflexivity.
  - cbn [app nopair] in IH. intros H. apply andb_true_iff in H as [H1 H2]. rewrite H1, (IH H2). reflexivity.
Qed.

(* strings.ReplaceAll of the pair a b by a, space, b: repl_open is repl "(" "*"
   and repl_close is repl "*" ")", with the same body *)
Definition repl (a b : ascii) : list ascii -> list ascii :=
  fix repl l :=
    match l with
    | x :: tl =>
        match tl with
        | y :: tl' => if pat a b x y then a :: " " :: b :: repl tl' else x :: repl tl
        | [] => [x]
        end
    | [] => []
    end.

Lemma sanitize_repl l : sanitize l = close_quote (repl "*" ")" (repl "(" "*" l)).
Proof. reflexivity. Qed.

Lemma repl_cons2 a b x y tl :
  repl a b (x :: y :: tl) = if pat a b x y then a :: " " :: b :: repl a b tl else x :: repl a b (y :: tl).
Proof. reflexivity. Qed.

Lemma hd_repl a b l : hd " " (repl a b l) = hd " " l.
Proof.
  destruct l as [|x [|y tl]]; [reflexivity..|]. rewrite repl_cons2. destruct (pat a b x y) eqn:E; [|reflexivity].
  apply andb_true_iff in E as [E _]. apply is_true_eq in E. subst x. reflexivity.
Qed.

(* induction for the two-at-a-time recursion *)
Lemma list_ind2 {A} (P : list A -> Prop) :
  P [] -> (forall x, P [x]) -> (forall x y tl, P tl -> P (y :: tl) -> P (x :: y :: tl)) -> forall l, P l.
Proof.
  intros H0 H1 H2. assert (H : forall l, P l /\ forall x, P (x :: l)).
  { induction l as [|y tl [IH1 IH2]].
    - split; [exact H0|exact H1].
    - split; [apply IH2|]. intros x. apply H2; [exact IH1|apply IH2]. }
  intros l. apply H.
Qed.

Section Repl.
Variables (a b : ascii) (p : ascii -> ascii -> bool).
(* the inserted text makes no pair p, whatever follows it *)
Hypothesis Ha : p a " " = false.
Hypothesis Hb : p " " b = false.
Hypothesis Hz : forall z, p b z = false.

Lemma nopair_ins l : nopair p l = true -> nopair p (a :: " " :: b :: l) = true.
Proof. intros H. cbn [nopair]. rewrite Ha, Hb, H. destruct l; [reflexivity|]. rewrite Hz. reflexivity. Qed.

Lemma repl_keeps_nopair l : nopair p l = true -> nopair p (repl a b l) = true.
Proof.
  induction l as [|x|x y tl IH1 IH2] using list_ind2; [reflexivity..|].
  intros H. cbn [nopair] in H. apply andb_true_iff in H as [Hxy H]. apply negb_true_iff in Hxy.
  rewrite repl_cons2. destruct (pat a b x y).
  - apply nopair_ins, IH1. destruct tl; [reflexivity|]. cbn [nopair] in H. apply andb_true_iff in H. apply H.
  - apply (nopair_intro y); [exact Hxy|apply hd_repl|exact (IH2 H)].
Qed.
End Repl.

(* no pair a b is left: the space separates the two, and b starts no new pair *)
Lemma repl_nopair a b : is b " " = false -> is a " " = false -> is a b = false ->
  forall l, nopair (pat a b) (repl a b l) = true.
Proof.
  intros Hb Ha Hab. induction l as [|x|x y tl IH1 IH2] using list_ind2; [reflexivity..|].
  rewrite repl_cons2. destruct (pat a b x y) eqn:E.
  - apply nopair_ins; [..|exact IH1]; unfold pat.
    + rewrite Hb. apply andb_false_r.
    + rewrite Ha. reflexivity.
    + intros z. rewrite Hab. reflexivity.
  - apply (nopair_intro y); [exact E|apply hd_repl|exact IH2].
Qed.

Lemma sanitize_nopair l : nopair po (sanitize l) = true /\ nopair pc (sanitize l) = true.
Proof.
  rewrite sanitize_repl. unfold close_quote.
  assert (Ho : nopair po (repl "*" ")" (repl "(" "*" l)) = true).
  { apply repl_keeps_nopair; [reflexivity..|]. apply repl_nopair; reflexivity. }
  assert (Hc : nopair pc (repl "*" ")" (repl "(" "*" l)) = true) by (apply repl_nopair; reflexivity).
  destruct (Nat.odd _); [|auto].
  split; apply nopair_app_quote; auto; intros x; apply andb_false_r.
Qed.

Lemma quotes_app a b : quotes (a ++ b) = quotes a + quotes b.
Proof. induction a as [|x a IH]; cbn; [reflexivity|]. rewrite IH. apply Nat.add_assoc. Qed.

Lemma odd_quotes_cons x l : Nat.odd (quotes (x :: l)) = xorb (is """" x) (Nat.odd (quotes l)).
Proof. cbn [quotes]. rewrite Nat.odd_add. destruct (is """" x); reflexivity. Qed.

Lemma sanitize_even l : Nat.odd (quotes (sanitize l)) = false.
Proof.
  unfold sanitize, close_quote. destruct (Nat.odd (quotes (repl_close (repl_open l)))) eqn:E; [|exact E].
  rewrite quotes_app, Nat.odd_add, E. reflexivity.
Qed.

Lemma scan_step d s x y tl :
  po x y = false -> pc x y = false -> scan d s (x :: y :: tl) = scan d (xorb s (is """" x)) (y :: tl).
Proof.
  unfold po, pc, pat. intros P1 P2. destruct s; cbn [scan xorb]; [|rewrite P1, P2]; destruct (is """" x); reflexivity.
Qed.

(* scanning text without comment delimiters inside a comment only toggles the string state *)
Lemma scan_body : forall l s rest,
  nopair po l = true -> nopair pc l = true ->
  scan 1 s (l ++ " " :: rest) = scan 1 (xorb s (Nat.odd (quotes l))) (" " :: rest).
Proof.
  induction l as [|x l IH]; intros s rest Ho Hc.
  - cbn. rewrite xorb_false_r. reflexivity.
  - apply nopair_inv in Ho as [P1 Ho]; [|apply andb_false_r]. apply nopair_inv in Hc as [P2 Hc]; [|apply andb_false_r].
    (* the character after x, also when l is empty *)
    assert (El : l ++ " " :: rest = hd " " l :: tl (l ++ " " :: rest)) by (destruct l; reflexivity).
    cbn [app]. rewrite El, (scan_step _ _ _ _ _ P1 P2), <- El, (IH _ _ Ho Hc), odd_quotes_cons, xorb_assoc.
    reflexivity.
Qed.

(* the text AddComment emits for ANY Go comment is exactly one Coq comment:
   read from its opening delimiter it closes at its own closing delimiter, with
   nothing of the comment left over and nothing after it consumed *)
Theorem comment_is_one_comment : forall c rest,
  scan 1 false (" " :: sanitize c ++ [" "; "*"; ")"] ++ rest) = LClosed rest.
Proof.
  intros c rest. destruct (sanitize_nopair c) as [Ho Hc].
  change (scan 1 false ((" " :: sanitize c) ++ " " :: "*" :: ")" :: rest) = LClosed rest).
  rewrite scan_body.
  - rewrite odd_quotes_cons, sanitize_even. reflexivity.
  - apply (nopair_intro (hd " " (sanitize c))); [reflexivity..|exact Ho].
  - apply (nopair_intro (hd " " (sanitize c))); [reflexivity..|exact Hc].
Qed.

(* without the repair of unmatched quotes the statement is false: *)
Definition sanitize_old (l : list ascii) : list ascii := repl_close (repl_open l).
Theorem comment_with_odd_quote_refuted :
  exists c rest, scan 1 false (" " :: sanitize_old c ++ [" "; "*"; ")"] ++ rest) <> LClosed rest.
Proof. exists [""""], ["x"]. vm_compute. discriminate. Qed.

(* string literals: text without a double quote, printed between quotes, is
   read back as exactly that text *)
Lemma scan_string_acc : forall s acc rest,
  quotes s = 0 -> hd " " rest <> """" ->
  scan_string (s ++ """" :: rest) acc = Some (acc ++ s, rest).
Proof.
  induction s as [|x s IH]; intros acc rest Hq Hr.
  - cbn. destruct rest as [|y r]; [rewrite app_nil_r; reflexivity|]. cbn in Hr.
    destruct (is """" y) eqn:E; [apply is_true_eq in E; congruence|]. rewrite app_nil_r. reflexivity.
  - cbn [quotes] in Hq. cbn [app scan_string]. destruct (is """" x); [discriminate|].
    rewrite IH by assumption. rewrite <- app_assoc. reflexivity.
Qed.

Theorem string_literal_read_back : forall s rest,
  quotes s = 0 -> hd " " rest <> """" ->
  scan_string (s ++ """" :: rest) [] = Some (s, rest).
Proof. intros. apply scan_string_acc; auto. Qed.
