From Coq Require Import String List Bool.
From GV Require Import Tr.Names.
Import ListNotations.
Open Scope string_scope.

Lemma no_us_app a b : no_us (a ++ b) = no_us a && no_us b.
Proof. induction a as [|c a IH]; cbn [String.append no_us]; [reflexivity|]. rewrite IH. apply andb_assoc. Qed.

Lemma method_name_has_us t m : no_us (method_name t m) = false.
Proof. unfold method_name. rewrite !no_us_app. cbn. apply andb_false_r. Qed.

(* without underscores in the type names, the first underscore of T__m ends T *)
Lemma method_name_injective t1 m1 t2 m2 :
  no_us t1 = true -> no_us t2 = true -> method_name t1 m1 = method_name t2 m2 -> t1 = t2 /\ m1 = m2.
Proof.
  unfold method_name. revert t2; induction t1 as [|c t1 IH]; intros [|c2 t2] H1 H2 H; cbn [String.append no_us] in *.
  - injection H as H. auto.
  - exfalso. injection H as Hc _. subst c2. cbn in H2. discriminate.
  - exfalso. injection H as Hc _. subst c. cbn in H1. discriminate.
  - injection H as -> H. apply andb_true_iff in H1 as [_ H1]. apply andb_true_iff in H2 as [_ H2].
    destruct (IH _ H1 H2 H) as [-> ->]. auto.
Qed.

Lemma in_somes {X} (x : X) l : In (Some x) l -> In x (somes l).
Proof. induction l as [|[y|] l IH]; cbn; [tauto| |]; intros [E|H]; try discriminate; [injection E as ->; auto|auto|auto]. Qed.

Lemma NoDup_somes_cons {X} (x : X) l : NoDup (somes (Some x :: l)) -> ~ In (Some x) l /\ NoDup (somes l).
Proof. cbn. intros H. inversion H as [|? ? Hx Hl]; subst. split; [|exact Hl]. intros Hin. apply Hx, in_somes, Hin. Qed.

(* a declaration is a method, or a package-level identifier that is its Coq name *)
Lemma coq_name_cases d :
  (exists t m, d = GMethod t m) \/
  (pkg_ident d = Some (coq_name d) /\ method_key d = None /\ idents_of d = [coq_name d]).
Proof. destruct d; cbn; eauto. Qed.

(* in a package whose identifiers contain no underscore, the Coq names are
   pairwise distinct: a method name has an underscore and a package-level
   identifier has none, so two declarations of one Coq name are two methods
   (with one key, since T__m determines T and m) or two identifiers *)
Theorem names_unique_plain : forall ds, go_valid ds -> plain ds -> NoDup (map coq_name ds).
Proof.
  induction ds as [|d ds IH]; intros [Hp Hm] Hpl; [constructor|].
  assert (Hpl' : plain ds) by (intros d' s Hd Hs; apply (Hpl d' s); [right; exact Hd|exact Hs]).
  cbn [map]. constructor.
  - (* the name of d is not the name of a later declaration *)
    intros Hin. apply in_map_iff in Hin as (d' & Hn & Hd').
    assert (Hus : forall s, In s (idents_of d) -> no_us s = true) by (intros s Hs; apply (Hpl d s); [left; reflexivity|exact Hs]).
    assert (Hus' : forall s, In s (idents_of d') -> no_us s = true) by (intros s Hs; apply (Hpl d' s); [right; exact Hd'|exact Hs]).
    destruct (coq_name_cases d) as [(t & m & ->)|(Hk & _ & Hi)]; destruct (coq_name_cases d') as [(t' & m' & ->)|(Hk' & _ & Hi')].
    + cbn [coq_name] in Hn. destruct (method_name_injective t' m' t m) as [-> ->]; [apply Hus'; cbn; auto|apply Hus; cbn; auto|exact Hn|].
      cbn [map method_key] in Hm. apply NoDup_somes_cons in Hm as [Hn' _]. apply Hn'.
      apply in_map_iff. exists (GMethod t m). split; [reflexivity|exact Hd'].
    + assert (Hx : no_us (coq_name d') = true) by (apply Hus'; rewrite Hi'; left; reflexivity).
      rewrite Hn in Hx. cbn [coq_name] in Hx. rewrite method_name_has_us in Hx. discriminate.
    + assert (Hx : no_us (coq_name d) = true) by (apply Hus; rewrite Hi; left; reflexivity).
      rewrite <- Hn in Hx. cbn [coq_name] in Hx. rewrite method_name_has_us in Hx. discriminate.
    + cbn [map] in Hp. rewrite Hk in Hp. apply NoDup_somes_cons in Hp as [Hn' _]. apply Hn'.
      apply in_map_iff. exists d'. split; [rewrite Hk', Hn; reflexivity|exact Hd'].
  - apply IH; [|exact Hpl']. split.
    + cbn [map] in Hp. destruct (pkg_ident d); [apply NoDup_somes_cons in Hp; apply Hp|exact Hp].
    + cbn [map] in Hm. destruct (method_key d); [apply NoDup_somes_cons in Hm; apply Hm|exact Hm].
Qed.

(* ... and not in general: Go-valid packages with two definitions of one name *)
Theorem names_unique_refuted :
  exists ds, go_valid ds /\ ~ NoDup (map coq_name ds).
Proof.
  exists [GType "A"; GMethod "A" "b"; GFunc "A__b"]. split.
  - split; cbn; repeat constructor; cbn; intuition discriminate.
  - cbn. intros H. inversion H as [|? ? _ H1]; subst. inversion H1 as [|? ? Hn _]; subst. apply Hn. left. reflexivity.
Qed.

(* the same with underscores only at the ends of identifiers, none doubled *)
Theorem names_unique_refuted_single_underscores :
  exists ds, go_valid ds /\ ~ NoDup (map coq_name ds).
Proof.
  exists [GType "a_"; GType "a"; GMethod "a_" "b"; GMethod "a" "_b"]. split.
  - split; cbn; repeat constructor; cbn; intuition discriminate.
  - cbn. intros H. inversion H as [|? ? _ H1]; subst. inversion H1 as [|? ? _ H2]; subst. inversion H2 as [|? ? Hn _]; subst.
    apply Hn. left. reflexivity.
Qed.

Example plain_package_is_covered :
  go_valid [GType "Log"; GMethod "Log" "Append"; GFunc "Open"; GConst "MaxLen"] /\
  plain [GType "Log"; GMethod "Log" "Append"; GFunc "Open"; GConst "MaxLen"].
Proof.
  split.
  - split; cbn; repeat constructor; cbn; intuition discriminate.
  - intros d s Hd Hs. cbn in Hd. repeat (destruct Hd as [<-|Hd]; [cbn in Hs; repeat (destruct Hs as [<-|Hs]; [reflexivity|]); destruct Hs|]). destruct Hd.
Qed.
