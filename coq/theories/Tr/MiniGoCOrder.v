(* The order goose emits is an order the call theorem applies to.

   Tr/Decls.v models goose's emission (a depth-first visit over the names a
   declaration mentions) for any package; Tr/MiniGoC.v needs the functions of a
   package callee first.  Here the two are composed: for a package of the
   MiniGoC fragment in SOURCE order - distinct function names, every call
   naming a function of the package, every function translatable on its own,
   no cycle of calls other than a function calling itself - the order Decls
   computes is accepted by trc_prog, so prog_correct applies to what goose
   emits. *)
From Coq Require Import String List Arith Bool Lia.
From GV Require Import Lang.GlSyntax Tr.MiniGo Tr.MiniGoProofs Tr.MiniGoC Tr.MiniGoCProofs Tr.Decls Tr.DeclsProofs.
Import ListNotations.
Local Open Scope nat_scope.
Local Open Scope list_scope.

Definition decl_of (fn : cfunc) : decl := {| d_names := [cf_name fn]; d_deps := callees_b (cf_body fn) |}.
Definition decls_of (P : cprog) : list decl := map decl_of P.
Definition pick (P : cprog) (order : list nat) : cprog :=
  flat_map (fun i => match nth_error P i with Some fn => [fn] | None => [] end) order.

(* ---------------------------------------------------------------- success does not depend on the values in the table *)
Lemma tr_binop_some op a b e a' b' : tr_binop op a b = Some e -> exists e', tr_binop op a' b' = Some e'.
Proof. destruct op; cbn [tr_binop]; intros H; try discriminate H; eexists; reflexivity. Qed.

Lemma flookup_some_In g T : In g (map fst T) -> flookup g T <> None.
Proof.
  induction T as [|[h w] T IH]; cbn [map fst In flookup]; [tauto|]. intros [<-|Hin].
  - rewrite String.eqb_refl. discriminate.
  - destruct (String.eqb g h); [discriminate|auto].
Qed.

Lemma forall_in_app {A} (Q : A -> Prop) l1 l2 :
  (forall x, In x (l1 ++ l2) -> Q x) -> (forall x, In x l1 -> Q x) /\ (forall x, In x l2 -> Q x).
Proof. intros H. split; intros x Hx; apply H, in_or_app; auto. Qed.

Lemma trc_table_indep T0 T self :
  (forall e G e0, trc_expr T0 self G e = Some e0 ->
     (forall g, In g (callees_e e) -> g = self \/ flookup g T <> None) ->
     exists e1, trc_expr T self G e = Some e1) /\
  (forall a G acc0 e0, trc_args T0 self G a acc0 = Some e0 ->
     (forall g, In g (callees_a a) -> g = self \/ flookup g T <> None) ->
     forall acc1, exists e1, trc_args T self G a acc1 = Some e1).
Proof.
  apply cexpr_cargs_ind.
  - intros n G e0 _ _. eexists; reflexivity.
  - intros b G e0 _ _. eexists; reflexivity.
  - intros x G e0 H _. cbn [trc_expr] in H |- *. destruct (smem x G); [eexists; reflexivity|discriminate].
  - intros op a IHa b IHb G e0 H Hc. cbn [trc_expr] in H |- *. apply forall_in_app in Hc as [Hca Hcb].
    destruct (trc_expr T0 self G a) as [a0|] eqn:Ea; [|discriminate].
    destruct (trc_expr T0 self G b) as [b0|] eqn:Eb; [|discriminate].
    destruct (IHa _ _ Ea Hca) as [a1 ->]. destruct (IHb _ _ Eb Hcb) as [b1 ->].
    eapply tr_binop_some, H.
  - intros a IHa G e0 H Hc. cbn [trc_expr] in H |- *.
    destruct (trc_expr T0 self G a) as [a0|] eqn:Ea; [|discriminate].
    destruct (IHa _ _ Ea Hc) as [a1 ->]. eexists; reflexivity.
  - intros f args IHargs G e0 H Hc. cbn [trc_expr] in H |- *. destruct (smem f G); [discriminate|].
    assert (Hfe : exists fe, (if String.eqb f self then Some (Var f) else option_map Val (flookup f T)) = Some fe).
    { destruct (String.eqb f self) eqn:Es; [eexists; reflexivity|].
      destruct (Hc f) as [->|Hf]; [left; reflexivity|rewrite String.eqb_refl in Es; discriminate|].
      destruct (flookup f T); [eexists; reflexivity|congruence]. }
    destruct Hfe as [fe ->].
    destruct (if String.eqb f self then Some (Var f) else option_map Val (flookup f T0)) as [fe0|]; [|discriminate].
    destruct args as [|a rest]; [eexists; reflexivity|].
    eapply IHargs; [exact H|]. intros g Hg. apply Hc. right. exact Hg.
  - intros G acc0 e0 _ _ acc1. eexists; reflexivity.
  - intros a IHa rest IHrest G acc0 e0 H Hc acc1. cbn [trc_args] in H |- *. apply forall_in_app in Hc as [Hca Hcr].
    destruct (trc_expr T0 self G a) as [a0|] eqn:Ea; [|discriminate].
    destruct (IHa _ _ Ea Hca) as [a1 ->]. exact (IHrest _ _ _ H Hcr _).
Qed.

Lemma trc_body_indep T0 T self : forall b G b0, trc_body T0 self G b = Some b0 ->
  (forall g, In g (callees_b b) -> g = self \/ flookup g T <> None) ->
  exists b1, trc_body T self G b = Some b1.
Proof.
  induction b as [e|x e k IHk|c th IHt el IHe]; intros G b0 H Hc; cbn [trc_body callees_b] in H, Hc |- *.
  - eapply (proj1 (trc_table_indep T0 T self)); eassumption.
  - apply forall_in_app in Hc as [Hce Hck].
    destruct (trc_expr T0 self G e) as [e0|] eqn:Ee; [|discriminate].
    destruct (trc_body T0 self (x :: G) k) as [k0|] eqn:Ek; [|discriminate].
    destruct (proj1 (trc_table_indep T0 T self) _ _ _ Ee Hce) as [e1 ->].
    destruct (IHk _ _ Ek Hck) as [k1 ->]. eexists; reflexivity.
  - apply forall_in_app in Hc as [Hcc Hc]. apply forall_in_app in Hc as [Hct Hce].
    destruct (trc_expr T0 self G c) as [c0|] eqn:Ec; [|discriminate].
    destruct (trc_body T0 self G th) as [t0|] eqn:Et; [|discriminate].
    destruct (trc_body T0 self G el) as [l0|] eqn:El; [|discriminate].
    destruct (proj1 (trc_table_indep T0 T self) _ _ _ Ec Hcc) as [c1 ->].
    destruct (IHt _ _ Et Hct) as [t1 ->]. destruct (IHe _ _ El Hce) as [l1 ->].
    eexists; reflexivity.
Qed.

Lemma trc_func_indep T0 T fn v0 : trc_func T0 fn = Some v0 ->
  (forall g, In g (callees_b (cf_body fn)) -> g = cf_name fn \/ flookup g T <> None) ->
  exists v, trc_func T fn = Some v.
Proof.
  unfold trc_func. intros H Hc.
  destruct (nodupb (cf_params fn) && negb (smem (cf_name fn) (cf_params fn))); [|discriminate].
  destruct (trc_body T0 (cf_name fn) (rev (cf_params fn)) (cf_body fn)) as [b0|] eqn:Eb; [|discriminate].
  destruct (trc_body_indep T0 T _ _ _ _ Eb Hc) as [b1 ->].
  destruct (cf_params fn); eexists; reflexivity.
Qed.

(* ---------------------------------------------------------------- names resolve to their function *)
Lemma mem_str_single n m : mem_str n [m] = String.eqb n m.
Proof. unfold mem_str. cbn [existsb]. apply orb_false_r. Qed.

Lemma resolve_from_absent P n : ~ In n (map cf_name P) -> forall i acc, resolve_from i (decls_of P) n acc = acc.
Proof.
  induction P as [|fn P IH]; intros Hn i acc; [reflexivity|]. cbn [decls_of map resolve_from decl_of d_names].
  rewrite mem_str_single. cbn [map In] in Hn.
  destruct (String.eqb_spec n (cf_name fn)) as [->|_]; [destruct Hn; left; reflexivity|].
  apply IH. tauto.
Qed.

Lemma resolve_from_nth : forall P j gn i acc, NoDup (map cf_name P) -> nth_error P j = Some gn ->
  resolve_from i (decls_of P) (cf_name gn) acc = Some (i + j).
Proof.
  induction P as [|fn P IH]; intros j gn i acc Hnd Hn; [destruct j; discriminate|].
  cbn [decls_of map resolve_from decl_of d_names]. rewrite mem_str_single.
  cbn [map] in Hnd. inversion Hnd as [|? ? Hfresh Hnd']; subst.
  destruct j as [|j]; cbn [nth_error] in Hn.
  - injection Hn as <-. rewrite String.eqb_refl. rewrite (resolve_from_absent P _ Hfresh). f_equal. lia.
  - assert (Hin : In (cf_name gn) (map cf_name P)) by (apply in_map, (nth_error_In _ _ Hn)).
    destruct (String.eqb_spec (cf_name gn) (cf_name fn)) as [E|_]; [rewrite E in Hin; contradiction|].
    fold (decls_of P). rewrite (IH j gn (S i) acc Hnd' Hn). f_equal. lia.
Qed.

Lemma resolve_nth P j gn : NoDup (map cf_name P) -> nth_error P j = Some gn -> resolve (decls_of P) (cf_name gn) = Some j.
Proof. intros Hnd Hn. unfold resolve. rewrite (resolve_from_nth P j gn 0 None Hnd Hn). reflexivity. Qed.

Lemma nth_error_name_inj P i j fi fj : NoDup (map cf_name P) ->
  nth_error P i = Some fi -> nth_error P j = Some fj -> cf_name fi = cf_name fj -> i = j.
Proof.
  (* the common name resolves to i and to j *)
  intros Hnd Hi Hj He. apply (resolve_nth P i fi Hnd) in Hi. apply (resolve_nth P j fj Hnd) in Hj. congruence.
Qed.

(* ---------------------------------------------------------------- the composition *)
Section Order.
Variable P : cprog.
Hypothesis Hnames : NoDup (map cf_name P).
Hypothesis Hdeclared : forall fn g, In fn P -> In g (callees_b (cf_body fn)) -> exists gn, In gn P /\ cf_name gn = g.
Hypothesis Hlocal : forall fn, In fn P -> exists T0 v, trc_func T0 fn = Some v.
Variable rk : nat -> nat.
Hypothesis Hacyclic : acyclic (decls_of P) rk.
Variable order : list nat.
Hypothesis Horder : emit_order (decls_of P) = Some order.

Definition names_of (pre : list nat) (g : string) : Prop :=
  exists i fn, In i pre /\ nth_error P i = Some fn /\ cf_name fn = g.

Lemma names_of_snoc pre id g :
  names_of (pre ++ [id]) g <-> names_of pre g \/ option_map cf_name (nth_error P id) = Some g.
Proof.
  unfold names_of. split.
  - intros (i & fn & Hi & Hn & Hg). apply in_app_or in Hi as [Hi|[<-|[]]]; [left; exists i, fn; auto|right; rewrite Hn, <- Hg; reflexivity].
  - intros [(i & fn & Hi & H)|H]; [exists i, fn; split; [apply in_or_app; auto|exact H]|].
    destruct (nth_error P id) as [fn|] eqn:En; [injection H as <-|discriminate].
    exists id, fn. split; [apply in_or_app; right; left; reflexivity|auto].
Qed.

Lemma accepted_from : forall rest pre T,
  order = pre ++ rest ->
  (forall g, In g (map fst T) <-> names_of pre g) ->
  exists R, trc_prog_from T (pick P rest) = Some R.
Proof.
  induction rest as [|id rest IH]; intros pre T Ho HT; [exists []; reflexivity|].
  specialize (IH (pre ++ [id])). rewrite <- app_assoc in IH. specialize (fun T' => IH T' Ho).
  cbn [pick flat_map]. destruct (nth_error P id) as [fn|] eqn:En; cbn [app].
  2:{ apply IH. intros g. rewrite names_of_snoc, En, HT. split; [auto|intros [H|[=]]; exact H]. }
  cbn [trc_prog_from].
  (* the name of fn is not in the table: id occurs once in the order *)
  assert (Hfresh : smem (cf_name fn) (map fst T) = false).
  { apply not_true_iff_false. intros E. apply smem_In, HT in E as (i & f & Hi & Hn & Hg).
    rewrite (nth_error_name_inj P i id f fn Hnames Hn En Hg) in Hi.
    pose proof (emitted_once _ _ Horder) as [Hnd _]. rewrite Ho in Hnd.
    apply NoDup_remove_2 in Hnd. apply Hnd, in_or_app. left; exact Hi. }
  rewrite Hfresh. cbn [negb].
  (* the other functions fn calls are in the table: they come before id *)
  assert (HinP : In fn P) by (eapply nth_error_In, En).
  destruct (Hlocal fn HinP) as (T0 & v0 & Hv0).
  destruct (trc_func_indep T0 T fn v0 Hv0) as [v Hv].
  { intros g Hg. destruct (string_dec g (cf_name fn)) as [->|Hne]; [left; reflexivity|right].
    destruct (Hdeclared fn g HinP Hg) as (gn & HgnP & <-).
    destruct (In_nth_error _ _ HgnP) as [j Hj].
    apply flookup_some_In, HT. exists j, gn. split; [|auto].
    apply (defined_before_use _ rk _ Hacyclic Horder pre id rest Ho j).
    exists (cf_name gn). split; [|split; [apply resolve_nth; assumption|congruence]].
    unfold deps_of, decls_of. rewrite nth_error_map, En. exact Hg. }
  rewrite Hv.
  destruct (IH ((cf_name fn, v) :: T)) as [R HR]; [|unfold pick in HR; rewrite HR; eexists; reflexivity].
  intros g. cbn [map fst In]. rewrite names_of_snoc, En, HT. split.
  - intros [<-|H]; [right; reflexivity|auto].
  - intros [H|[= <-]]; auto.
Qed.

Theorem goose_order_is_accepted : exists vs, trc_prog (pick P order) = Some vs.
Proof.
  destruct (accepted_from order [] [] eq_refl) as [R HR].
  - intros g. split; [intros []|intros (i & f & [] & _)].
  - unfold trc_prog. rewrite HR. eexists; reflexivity.
Qed.
End Order.

(* ... hence what goose emits for such a package preserves meaning *)
Theorem goose_order_preserves_meaning P rk order :
  NoDup (map cf_name P) ->
  (forall fn g, In fn P -> In g (callees_b (cf_body fn)) -> exists gn, In gn P /\ cf_name gn = g) ->
  (forall fn, In fn P -> exists T0 v, trc_func T0 fn = Some v) ->
  acyclic (decls_of P) rk -> emit_order (decls_of P) = Some order ->
  exists vs, trc_prog (pick P order) = Some vs /\
    Forall2 (fun fn F => forall n args v s,
               length args = length (cf_params fn) ->
               cgo_body n (pick P order) (rev (combine (cf_params fn) args)) (cf_body fn) = Some v ->
               evals (call_expr F args) s v s) (pick P order) vs.
Proof.
  intros H1 H2 H3 H4 H5. destruct (goose_order_is_accepted P H1 H2 H3 rk H4 order H5) as [vs Hvs].
  exists vs. split; [exact Hvs|apply prog_correct, Hvs].
Qed.

(* the hypotheses are satisfiable: the example package of MiniGoCProofs written
   caller first *)
Definition ex_src : cprog := [ex_use; ex_gcd; ex_seven].
Definition ex_rk (i : nat) : nat := match i with 0 => 1 | _ => 0 end.

Example ex_src_order : emit_order (decls_of ex_src) = Some [1; 2; 0].
Proof. vm_compute. reflexivity. Qed.

Example ex_src_hypotheses :
  NoDup (map cf_name ex_src) /\
  (forall fn g, In fn ex_src -> In g (callees_b (cf_body fn)) -> exists gn, In gn ex_src /\ cf_name gn = g) /\
  (forall fn, In fn ex_src -> exists T0 v, trc_func T0 fn = Some v) /\
  acyclic (decls_of ex_src) ex_rk.
Proof.
  split; [|split; [|split]].
  - apply nodupb_NoDup. vm_compute. reflexivity.
  - intros fn g Hfn Hg. enough (H : find_func g ex_src <> None).
    { destruct (find_func g ex_src) as [gn|] eqn:E; [exists gn; apply find_func_In, E|contradiction]. }
    revert g Hg. apply Forall_forall. revert fn Hfn. apply Forall_forall. repeat constructor; discriminate.
  - intros fn Hfn. exists [("Gcd"%string, LitV LitUnit); ("Seven"%string, LitV LitUnit); ("Use"%string, LitV LitUnit)].
    cbn [ex_src In] in Hfn. destruct Hfn as [<-|[<-|[<-|[]]]]; eexists; vm_compute; reflexivity.
  - intros id j (dep & Hin & Hres & Hne). destruct id as [|id]; [destruct j; [contradiction|apply Nat.lt_0_1]|].
    (* only Use, declaration 0, calls another function *)
    exfalso. unfold deps_of in Hin. destruct id as [|[|[|id]]]; cbn in Hin; [|destruct Hin..].
    repeat (destruct Hin as [<-|Hin]; [vm_compute in Hres; congruence|]). destruct Hin.
Qed.

Example ex_src_accepted_in_goose_order :
  exists vs, trc_prog (pick ex_src [1; 2; 0]) = Some vs /\ length vs = 3.
Proof. eexists. split; [vm_compute; reflexivity|reflexivity]. Qed.
