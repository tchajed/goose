(* What the preservation proof for MiniGoL (Tr/MiniGoLBlocks.v) builds on: the
   names the emitted term does not mention, the For loop of the library run
   through one iteration, lists that never fall off their end, and the
   statement of the theorem for lists without nested blocks (P_lgo, P_lloop). *)
From Coq Require Import String List ZArith Bool.
From GV Require Import Lang.GlSyntax Lang.GlSem Lang.GlSemProofs Tr.MiniGo Tr.MiniGoProofs Tr.MiniGoL.
Import ListNotations.
Local Open Scope nat_scope.

(* ---------------------------------------------------------------- names the output does not mention *)
(* x is not free in e; the translation does not mention a name goose does not
   know as a variable (trl_nofree) *)
Definition nofree (x : string) (e : expr) : Prop := forall v, subst x v e = e.

Lemma nofree_val x v : nofree x (Val v).
Proof. intros w. reflexivity. Qed.

Lemma nofree_app x a b : nofree x a -> nofree x b -> nofree x (App a b).
Proof. intros Ha Hb v. cbn [subst]. rewrite Ha, Hb. reflexivity. Qed.

Lemma nofree_binop x op a b : nofree x a -> nofree x b -> nofree x (BinOp op a b).
Proof. intros Ha Hb v. cbn [subst]. rewrite Ha, Hb. reflexivity. Qed.

Lemma nofree_unop x op a : nofree x a -> nofree x (UnOp op a).
Proof. intros Ha v. cbn [subst]. rewrite Ha. reflexivity. Qed.

Lemma nofree_if x a b c : nofree x a -> nofree x b -> nofree x c -> nofree x (If a b c).
Proof. intros Ha Hb Hc v. cbn [subst]. rewrite Ha, Hb, Hc. reflexivity. Qed.

Lemma nofree_var x y : x <> y -> nofree x (Var y).
Proof. intros Hne v. cbn [subst]. destruct (String.eqb x y) eqn:E; [apply String.eqb_eq in E; congruence|reflexivity]. Qed.

Lemma nofree_thunk x e : nofree x e -> nofree x (Thunk e).
Proof. intros H v. unfold Thunk. cbn [subst binder_is orb]. rewrite H. reflexivity. Qed.

(* let: y := a in b — b may mention y *)
Lemma nofree_letin x y a b : nofree x a -> (BNamed x <> y -> nofree x b) -> nofree x (LetIn y a b).
Proof.
  intros Ha Hb v. unfold LetIn, Lam. cbn [subst binder_is orb]. rewrite Ha. f_equal.
  destruct y as [|z]; cbn [binder_is].
  - rewrite Hb by discriminate. reflexivity.
  - destruct (String.eqb x z) eqn:E; [reflexivity|]. rewrite Hb; [reflexivity|].
    intros [= ->]. rewrite String.eqb_refl in E. discriminate.
Qed.

Lemma nofree_seq x a b : nofree x a -> nofree x b -> nofree x (Seq a b).
Proof. intros Ha Hb. unfold Seq. apply nofree_letin; auto. Qed.

Lemma nofree_load x t e : nofree x e -> nofree x (Load t e).
Proof. intros. apply nofree_app; [apply nofree_val|assumption]. Qed.

Lemma nofree_store x t l e : nofree x l -> nofree x e -> nofree x (Store t l e).
Proof. intros. repeat apply nofree_app; auto using nofree_val. Qed.

Definition knofree (x : string) (k : option expr) : Prop := match k with Some r => nofree x r | None => True end.

Lemma knofree_iff x k : knofree x k <-> forall kr, k = Some kr -> nofree x kr.
Proof. destruct k as [kr|]; cbn [knofree]; split; [intros H ? [= <-]; exact H|auto|discriminate|auto]. Qed.

Lemma then_k_none e : then_k e None = e.
Proof. reflexivity. Qed.

Lemma nofree_then_k x e k : nofree x e -> knofree x k -> nofree x (then_k e k).
Proof. destruct k; cbn; intros; [apply nofree_seq|]; auto. Qed.

(* goals "x is not free in <a term built by the translator>" follow the term *)
Create HintDb nofree.
#[local] Hint Resolve nofree_val nofree_app nofree_binop nofree_unop nofree_if nofree_thunk nofree_seq
  nofree_load nofree_store nofree_then_k : nofree.

Lemma tr_binop_nofree x op a b e : tr_binop op a b = Some e -> nofree x a -> nofree x b -> nofree x e.
Proof. intros H Ha Hb v. pose proof (subst_tr_binop x v _ _ _ _ H) as H'. rewrite Ha, Hb, H in H'. congruence. Qed.

Lemma tr_expr_nofree G x : tlookup x G = None -> forall e e', tr_expr G e = Some e' -> nofree x e'.
Proof.
  intros Hx. induction e as [n|b|y|op a IHa b IHb|a IHa]; cbn [tr_expr]; intros e' H.
  - injection H as <-. apply nofree_val.
  - injection H as <-. apply nofree_val.
  - assert (Hy : nofree x (Var y)) by (apply nofree_var; intros ->; rewrite Hx in H; discriminate).
    destruct (tlookup y G) as [[[] t]|]; try discriminate; injection H as <-; auto with nofree.
  - destruct (tr_expr G a) as [a'|]; [|discriminate]. destruct (tr_expr G b) as [b'|]; [|discriminate].
    eapply tr_binop_nofree; eauto.
  - destruct (tr_expr G a) as [a'|]; [|discriminate]. injection H as <-. auto with nofree.
Qed.

Lemma tlookup_cons_none x y k G : tlookup x ((y, k) :: G) = None -> x <> y /\ tlookup x G = None.
Proof. cbn. destruct (String.eqb x y) eqn:E; [discriminate|]. apply String.eqb_neq in E. auto. Qed.

Lemma tlookup_cons_other x y k G : tlookup x G = None -> BNamed x <> BNamed y -> tlookup x ((y, k) :: G) = None.
Proof. intros Hx Hne. cbn. destruct (String.eqb x y) eqn:E; [apply String.eqb_eq in E; congruence|exact Hx]. Qed.

(* a simple statement: its expression does not mention x; the environment it
   leaves knows x only if it declares x *)
Lemma tr_simple_nofree {G x g xb e G'} :
  tlookup x G = None -> tr_simple G g = Some (xb, e, G') ->
  nofree x e /\ (BNamed x <> xb -> tlookup x G' = None).
Proof.
  intros Hx H. pose proof (tr_expr_nofree G x Hx) as He.
  assert (Hvar : forall y k, tlookup y G = Some k -> nofree x (Var y)) by (intros y k Hy; apply nofree_var; intros ->; congruence).
  destruct g as [y e0|y t [e0|]|y e0|op y e0|inc y|c th el|e0]; cbn [tr_simple] in H; try discriminate.
  - destruct (tr_expr G e0) as [e'|] eqn:Et; [|discriminate]. injection H as <- <- <-. eauto using tlookup_cons_other.
  - destruct (tr_expr G e0) as [e'|] eqn:Et; [|discriminate]. injection H as <- <- <-. unfold RefTo. eauto using tlookup_cons_other with nofree.
  - injection H as <- <- <-. unfold RefZero. eauto using tlookup_cons_other with nofree.
  - destruct (tlookup y G) as [[[] t]|] eqn:El; try discriminate.
    destruct (tr_expr G e0) as [e'|] eqn:Et; [|discriminate]. injection H as <- <- <-. eauto with nofree.
  - destruct (tlookup y G) as [[[] t]|] eqn:El; try discriminate.
    destruct (tr_expr G e0) as [e'|] eqn:Et; [|discriminate]. destruct (assign_op op); [|discriminate].
    destruct (tr_binop op _ e') as [rhs|] eqn:Eb; [|discriminate]. injection H as <- <- <-.
    split; [|auto]. apply nofree_store; [eauto|]. eapply tr_binop_nofree; eauto with nofree.
  - destruct (tlookup y G) as [[[] t]|] eqn:El; try discriminate. injection H as <- <- <-.
    pose proof (Hvar _ _ El). split; [unfold Lit; auto 6 with nofree|auto].
Qed.

Lemma shadows_false_lookup G s x : shadows G s = false -> In x (names_stmt s) -> tlookup x G = None.
Proof.
  unfold shadows. intros H Hin. destruct (tlookup x G) eqn:E; [|reflexivity]. exfalso.
  assert (existsb (fun x => match tlookup x G with Some _ => true | None => false end) (names_stmt s) = true).
  { apply existsb_exists. exists x. rewrite E. auto. }
  congruence.
Qed.

Lemma final_of_nofree x u fin : final_of u = Some fin -> nofree x fin.
Proof. destruct u; intros [= <-]; apply nofree_val. Qed.

Lemma after_nofree x f G u rest k aft :
  (forall r', llast rest = false -> trl f G u rest k = Some r' -> nofree x r') -> knofree x k ->
  (if llast rest then match final_of u with Some fin => Some (Some (then_k fin k)) | None => Some k end
   else match trl f G u rest k with Some r' => Some (Some r') | None => None end) = Some aft ->
  knofree x aft.
Proof.
  intros Hrest Hk Ea. destruct (llast rest).
  - destruct (final_of u) as [fin|] eqn:Ef; injection Ea as <-; [|exact Hk].
    apply nofree_then_k; [eapply final_of_nofree, Ef|exact Hk].
  - destruct (trl f G u rest k) as [r'|] eqn:Er; [|discriminate]. injection Ea as <-. exact (Hrest r' eq_refl eq_refl).
Qed.

Lemma trl_nofree x : forall fuel G u b k e,
  trl fuel G u b k = Some e -> tlookup x G = None -> knofree x k -> nofree x e.
Proof.
  induction fuel as [|f IH]; intros G u b k e H Hx Hk; [discriminate|].
  destruct b as [|st rest]; [injection H as <-; apply nofree_then_k; [destruct u; apply nofree_val|exact Hk]|].
  destruct st as [g|c th el|e0|init cond post body| | |inner].
  - (* simple *)
    destruct rest as [|st2 rest2]; cbn [trl] in H.
    + destruct (tr_simple G g) as [[[xb e1] G']|] eqn:Es; [|discriminate].
      destruct (tr_simple_nofree Hx Es) as [He1 _].
      destruct (final_of u) as [fin|] eqn:Ef; injection H as <-.
      * apply nofree_letin; [exact He1|]. intros _. apply nofree_then_k; [eapply final_of_nofree, Ef|exact Hk].
      * apply nofree_then_k; assumption.
    + destruct (tr_simple G g) as [[[xb e1] G']|] eqn:Es; [|discriminate].
      destruct (tr_simple_nofree Hx Es) as [He1 HG'].
      destruct (trl f G' u (LCons st2 rest2) k) as [r'|] eqn:Er; [|discriminate]. injection H as <-.
      apply nofree_letin; [exact He1|]. intros Hne. eapply IH; eauto.
  - (* if *)
    cbn [trl] in H. destruct (tr_expr G c) as [c'|] eqn:Ec; [|discriminate].
    pose proof (tr_expr_nofree _ _ Hx _ _ Ec) as Hc.
    destruct (llast rest).
    + destruct (trl f G u th None) as [t'|] eqn:Et; [|discriminate].
      destruct (trl f G u (lblock_of el) None) as [e'|] eqn:Ee; [|discriminate]. injection H as <-.
      apply nofree_then_k; [|exact Hk]. apply nofree_if; [exact Hc|eapply IH; eauto; exact I|eapply IH; eauto; exact I].
    + destruct (lends (lsize th) th).
      * destruct (llast (lblock_of el)); [|discriminate].
        destruct (trl f G u th None) as [t'|] eqn:Et; [|discriminate].
        destruct (trl f G u rest None) as [r'|] eqn:Er; [|discriminate]. injection H as <-.
        apply nofree_then_k; [|exact Hk]. apply nofree_if; [exact Hc|eapply IH; eauto; exact I|eapply IH; eauto; exact I].
      * destruct (trl f G ULocal th None) as [t'|] eqn:Et; [|discriminate].
        destruct (trl f G ULocal (lblock_of el) None) as [e'|] eqn:Ee; [|discriminate].
        destruct (trl f G u rest k) as [r'|] eqn:Er; [|discriminate]. injection H as <-.
        apply nofree_seq; [|eapply IH; eauto]. apply nofree_if; [exact Hc|eapply IH; eauto; exact I|eapply IH; eauto; exact I].
  - (* return *)
    destruct rest; cbn [trl] in H; [|discriminate]. destruct u; try discriminate.
    destruct (tr_expr G e0) as [e'|] eqn:Ee; [|discriminate]. injection H as <-.
    apply nofree_then_k; [eapply tr_expr_nofree; eauto|exact Hk].
  - (* for *)
    cbn [trl] in H.
    set (G1 := match init with Some (i, e1) => (i, (true, type_of G e1)) :: G | None => G end) in *.
    destruct (match cond with Some c => tr_expr G1 c | None => Some (BoolE true) end) as [c'|] eqn:Ec; [|discriminate].
    destruct (match post with Some g => match tr_simple G1 g with Some (BAnon, e1, _) => Some e1 | _ => None end | None => Some SkipE end) as [p'|] eqn:Ep; [|discriminate].
    destruct (trl f G1 ULoop body None) as [b'|] eqn:Eb; [|discriminate].
    (* facts inside the loop, provided x is not the loop variable *)
    assert (Hin : tlookup x G1 = None -> nofree x (ForE (Thunk c') (Thunk b') (Thunk p'))).
    { intros Hx1. unfold ForE. repeat apply nofree_app; try apply nofree_val; apply nofree_thunk.
      - destruct cond as [c|]; [eapply tr_expr_nofree; eauto|injection Ec as <-; apply nofree_val].
      - eapply IH; eauto. exact I.
      - destruct post as [g|]; [|injection Ep as <-; apply nofree_app; apply nofree_val].
        destruct (tr_simple G1 g) as [[[[|?] e1] G2]|] eqn:Es; try discriminate. injection Ep as <-.
        eapply tr_simple_nofree; eauto. }
    destruct (if llast rest then match final_of u with Some fin => Some (Some (then_k fin k)) | None => Some k end
              else match trl f G u rest k with Some r' => Some (Some r') | None => None end) as [aft|] eqn:Ea; [|discriminate].
    assert (Haft : knofree x aft) by (apply (after_nofree x f G u rest k aft); [intros r' _ Er; eapply IH; eauto|exact Hk|exact Ea]).
    destruct init as [[i e1]|].
    + destruct (tr_expr G e1) as [e1'|] eqn:Ee1; [|discriminate].
      assert (Hcell : nofree x (RefTo (ty_of (type_of G e1)) e1')).
      { apply nofree_app; [apply nofree_val|eapply tr_expr_nofree; eauto]. }
      assert (Hloop : BNamed x <> BNamed i -> nofree x (ForE (Thunk c') (Thunk b') (Thunk p'))).
      { intros Hne. apply Hin. unfold G1. cbn. destruct (String.eqb x i) eqn:E; [apply String.eqb_eq in E; congruence|exact Hx]. }
      destruct (negb (llast rest) && shadows G (LFor (Some (i, e1)) cond post body)); injection H as <-.
      * apply nofree_then_k; [|exact Haft]. apply nofree_letin; auto.
      * apply nofree_letin; [exact Hcell|]. intros Hne. apply nofree_then_k; auto.
    + injection H as <-. apply nofree_seq; [apply nofree_app; apply nofree_val|]. apply nofree_then_k; [apply Hin, Hx|exact Haft].
  - (* break *)
    destruct rest; cbn [trl] in H; [|discriminate]. destruct u; try discriminate. injection H as <-.
    apply nofree_then_k; [apply nofree_val|exact Hk].
  - (* continue *)
    destruct rest; cbn [trl] in H; [|discriminate]. destruct u; try discriminate. injection H as <-.
    apply nofree_then_k; [apply nofree_val|exact Hk].
  - (* nested block *)
    destruct rest as [|st2 rest2]; cbn [trl] in H.
    + eapply IH; eauto.
    + destruct (trl f G u (LCons st2 rest2) k) as [r'|] eqn:Er; [|discriminate].
      assert (Hr : nofree x r') by (eapply IH; eauto).
      destruct (shadows G (LBlock inner)).
      * destruct (trl f G ULocal inner None) as [i'|] eqn:Ei; [|discriminate]. injection H as <-.
        apply nofree_seq; [eapply IH; eauto; exact I|exact Hr].
      * eapply IH; eauto.
Qed.

(* ---------------------------------------------------------------- the For loop of the library *)
Definition thunkV (e : expr) : val := RecV BAnon BAnon e.

Definition loop_body (cv bv pv : val) : expr :=
  LetIn (BNamed "__continue")
    (If (App (Val cv) U) (App (Val bv) U) (Val (vbool false)))
    (If (Var "__continue") (Seq (App (Val pv) U) (App (Var "__loop") U)) U).

Definition loopV (cv bv pv : val) : val := RecV (BNamed "__loop") BAnon (loop_body cv bv pv).

Lemma evals_thunk_call e s w s' : evals e s w s' -> evals (App (Val (thunkV e)) U) s w s'.
Proof. exact (evals_beta BAnon BAnon e vunit s w s'). Qed.

(* calling the loop function once: its body with itself substituted *)
Lemma evals_loop_call cv bv pv s w s' :
  evals (LetIn (BNamed "__continue")
           (If (App (Val cv) U) (App (Val bv) U) (Val (vbool false)))
           (If (Var "__continue") (Seq (App (Val pv) U) (App (Val (loopV cv bv pv)) U)) U)) s w s' ->
  evals (App (Val (loopV cv bv pv)) U) s w s'.
Proof. exact (evals_beta (BNamed "__loop") BAnon (loop_body cv bv pv) vunit s w s'). Qed.

Lemma evals_for_loop cv bv pv s w s' :
  evals (App (Val (loopV cv bv pv)) U) s w s' -> evals (for_loop cv bv pv) s w s'.
Proof. exact (sim2_fill (FAppL vunit) _ _ _ _ (sim2_rec (BNamed "__loop") BAnon (loop_body cv bv pv) s) w s'). Qed.

Lemma loop_exit c b p s s1 :
  evals c s (vbool false) s1 -> evals (App (Val (loopV (thunkV c) (thunkV b) (thunkV p))) U) s vunit s1.
Proof.
  intros Hc. apply evals_loop_call. eapply evals_letin.
  - eapply evals_if; [apply evals_thunk_call, Hc|]. cbn. apply evals_val.
  - cbn. eapply evals_if; [apply evals_val|]. cbn. apply evals_val.
Qed.

Lemma loop_break c b p s s1 s2 :
  evals c s (vbool true) s1 -> evals b s1 (vbool false) s2 ->
  evals (App (Val (loopV (thunkV c) (thunkV b) (thunkV p))) U) s vunit s2.
Proof.
  intros Hc Hb. apply evals_loop_call. eapply evals_letin.
  - eapply evals_if; [apply evals_thunk_call, Hc|]. cbn. apply evals_thunk_call, Hb.
  - cbn. eapply evals_if; [apply evals_val|]. cbn. apply evals_val.
Qed.

Lemma loop_continue c b p s s1 s2 wp s3 w s4 :
  evals c s (vbool true) s1 -> evals b s1 (vbool true) s2 -> evals p s2 wp s3 ->
  evals (App (Val (loopV (thunkV c) (thunkV b) (thunkV p))) U) s3 w s4 ->
  evals (App (Val (loopV (thunkV c) (thunkV b) (thunkV p))) U) s w s4.
Proof.
  intros Hc Hb Hp Hl. apply evals_loop_call. eapply evals_letin.
  - eapply evals_if; [apply evals_thunk_call, Hc|]. cbn. apply evals_thunk_call, Hb.
  - cbn. eapply evals_if; [apply evals_val|]. cbn. eapply evals_seq; [apply evals_thunk_call, Hp|exact Hl].
Qed.

Lemma evals_ForE c b p s w s' :
  evals (App (Val (loopV (thunkV c) (thunkV b) (thunkV p))) U) s w s' ->
  evals (ForE (Thunk c) (Thunk b) (Thunk p)) s w s'.
Proof.
  intros Hl. apply evals_for_loop in Hl.
  (* the three thunks are values ... *)
  apply (evals_apps_args [Thunk c; Thunk b; Thunk p] [thunkV c; thunkV b; thunkV p]).
  { repeat constructor; intros s0; apply sim2_rec, evals_val. }
  (* ... the first two are taken one by one, the third makes For unfold to its loop *)
  cbn [map fold_left]. apply (sim2_fill (FAppL (thunkV p)) _ s (Val (PrimV PFor [thunkV c; thunkV b])) s).
  - eapply sim2_trans; [apply (sim2_fill (FAppL (thunkV b))), sim2_prim_partial|apply sim2_prim_partial]; reflexivity.
  - apply (sim2_prim_loop PFor [thunkV c; thunkV b] (thunkV p) s (for_loop (thunkV c) (thunkV b) (thunkV p))); [reflexivity..|exact Hl].
Qed.

Lemma close_thunk cs e : close cs (Thunk e) = Thunk (close cs e).
Proof. exact (close_lam cs BAnon e). Qed.

Lemma close_ForE cs c b p : close cs (ForE c b p) = ForE (close cs c) (close cs b) (close cs p).
Proof. unfold ForE. rewrite !close_app, close_val. reflexivity. Qed.

Lemma close_skip cs : close cs SkipE = SkipE.
Proof. unfold SkipE. rewrite close_app, !close_val. reflexivity. Qed.

Lemma evals_skip s : evals SkipE s vunit s.
Proof. unfold SkipE. apply (evals_thunk_call (Val vunit)). apply evals_val. Qed.

(* ---------------------------------------------------------------- lists that never fall off their end *)
Lemma lgo_nil n r s : lgo n r s LNil = match n with O => LFuelOut | S _ => LNormal r s end.
Proof. destruct n; reflexivity. Qed.

Lemma lends_cons k st st2 rest : lends k (LCons st (LCons st2 rest)) = lends k (LCons st2 rest).
Proof. destruct k; reflexivity. Qed.

(* a list that ends with return / break / continue never falls off its end *)
Lemma lends_not_normal : forall n,
  (forall k b r s r' s', lends k b = true -> lgo n r s b <> LNormal r' s').
Proof.
  induction n as [|n IH]; intros k b r s r' s' He; [discriminate|].
  destruct b as [|st [|st2 rest]].
  - destruct k; discriminate.
  - destruct k as [|k]; [discriminate|]. cbn [lends llast_stmt] in He.
    destruct st as [g|c th [el|]|e0|init cond post body| | |inner]; try discriminate He; cbn [lgo]; try discriminate.
    + apply andb_true_iff in He as [H1 H2].
      destruct (go_expr r s c) as [[[| | |cb| | | |]| | |]|]; try discriminate.
      destruct (lgo n r s (if cb then th else lblock_of (Some el))) eqn:E; try discriminate.
      exfalso. destruct cb; [exact (IH _ _ _ _ _ _ H1 E)|exact (IH _ _ _ _ _ _ H2 E)].
    + destruct (go_expr r s e0); discriminate.
  - rewrite lends_cons in He.
    destruct st as [g|c th el|e0|init cond post body| | |inner]; cbn [lgo].
    + destruct (go_simple r s g) as [[r1 s1]|]; [exact (IH _ _ _ _ _ _ He)|discriminate].
    + destruct (go_expr r s c) as [[[| | |cb| | | |]| | |]|]; try discriminate.
      destruct (lgo n r s (if cb then th else lblock_of el)) eqn:E; try discriminate. exact (IH _ _ _ _ _ _ He).
    + destruct (go_expr r s e0); discriminate.
    + destruct init as [[i e]|].
      * destruct (go_expr r s e) as [v|]; [|discriminate]. destruct (alloc_cell v s) as [bb s1].
        destruct (lloop n ((i, Cell bb) :: r) s1 cond post body); try discriminate. exact (IH _ _ _ _ _ _ He).
      * destruct (lloop n r s cond post body); try discriminate. exact (IH _ _ _ _ _ _ He).
    + discriminate.
    + discriminate.
    + destruct (lgo n r s inner); try discriminate. exact (IH _ _ _ _ _ _ He).
Qed.

(* ---------------------------------------------------------------- the theorem for lists without nested blocks *)
Fixpoint noblocks (b : lblock) : bool :=
  match b with
  | LNil => true
  | LCons s rest => noblocks_stmt s && noblocks rest
  end
with noblocks_stmt (s : lstmt) : bool :=
  match s with
  | LBlock _ => false
  | LIf _ th el => noblocks th && match el with Some e => noblocks e | None => true end
  | LFor _ _ _ body => noblocks body
  | _ => true
  end.

Definition lpost (u : lusage) (e : expr) (r : genv) (s : state) (o : lout) : Prop :=
  match o with
  | LRet v s' => u = UReturned /\ evals (close (cs_of r) e) s v s'
  | LNormal _ s' => cells_kept s s' /\ exists w, evals (close (cs_of r) e) s w s' /\
                      (u = UReturned -> w = vunit) /\ (u = ULoop -> w = vbool true)
  | LBrk s' => u = ULoop /\ cells_kept s s' /\ evals (close (cs_of r) e) s (vbool false) s'
  | LCont s' => u = ULoop /\ cells_kept s s' /\ evals (close (cs_of r) e) s (vbool true) s'
  | LErr | LFuelOut => True
  end.

Definition P_lgo (n : nat) : Prop := forall tf G u b e r s,
  trl tf G u b None = Some e -> noblocks b = true -> agree G r s -> lpost u e r s (lgo n r s b).

Definition loop_expr (cs : csub) (c' b' p' : expr) : expr :=
  App (Val (loopV (thunkV (close cs c')) (thunkV (close cs b')) (thunkV (close cs p')))) U.

Definition P_lloop (n : nat) : Prop := forall tf G1 r1 s1 cond post body c' p' b',
  (match cond with Some c => tr_expr G1 c | None => Some (BoolE true) end) = Some c' ->
  (match post with Some g => match tr_simple G1 g with Some (BAnon, e, _) => Some e | _ => None end | None => Some SkipE end) = Some p' ->
  trl tf G1 ULoop body None = Some b' -> noblocks body = true -> agree G1 r1 s1 ->
  match lloop n r1 s1 cond post body with
  | LNormal _ s2 => cells_kept s1 s2 /\ evals (loop_expr (cs_of r1) c' b' p') s1 vunit s2
  | LRet _ _ | LBrk _ | LCont _ => False
  | LErr | LFuelOut => True
  end.

(* non-vacuity: a function with a counted loop, continue, break and an early return *)
Definition example_loop : lfunc :=
  {| lf_name := "F"; lf_params := [("k", TU64)];
     lf_body :=
       LCons (LSimple (SVar "n" TU64 None))
      (LCons (LFor (Some ("i", ELit 0)) (Some (EBin OLt (EVar "i") (ELit 10))) (Some (SIncDec true "i"))
                (LCons (LIf (EBin OEq (EBin ORem (EVar "i") (ELit 2)) (ELit 0)) (LCons LContinue LNil) None)
                (LCons (LIf (EBin OGt (EVar "i") (EVar "k")) (LCons LBreak LNil) None)
                (LCons (LSimple (SOpAssign OAdd "n" (EVar "i"))) LNil))))
      (LCons (LIf (EBin OGt (EVar "n") (ELit 20)) (LCons (LReturn (ELit 99)) LNil) None)
      (LCons (LReturn (EVar "n")) LNil))) |}.

Example example_loop_accepted_and_returns :
  (exists e, trl 30 (params_env (lf_params example_loop)) UReturned (lf_body example_loop) None = Some e) /\
  noblocks (lf_body example_loop) = true /\
  (exists s', lgo_call 200 example_loop [LitV (LitInt 6)] = LRet (LitV (LitInt 9)) s') /\
  (exists s', lgo_call 200 example_loop [LitV (LitInt 100)] = LRet (LitV (LitInt 99)) s').
Proof. repeat split; try eexists; vm_compute; reflexivity. Qed.
