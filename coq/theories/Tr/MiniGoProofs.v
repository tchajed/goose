(* The translation of MiniGo preserves meaning: whenever the Go semantics of
   the fragment gives a result, the GooseLang term goose emits (tr_block)
   evaluates, under the reference semantics, to the same result and store.

   The first half of the file is what the later fragments (MiniGoL, MiniGoC,
   MiniGoS) build on.  About the reference semantics alone (and used by
   Lang/GlMachineSeq.v): evaluation as a relation with its rules, evaluation
   contexts, closing substitutions, the protocol of a call.  About what the
   fragments share of MiniGo.v: environments and the translator's view of
   them (agree), memory cells, operators. *)
From Coq Require Import String List ZArith Bool Lia.
From GV Require Import Lang.GlSyntax Lang.GlSem Lang.GlSemProofs Tr.MiniGo.
Import ListNotations.
Local Open Scope nat_scope.
Local Open Scope list_scope.

(* ---------------------------------------------------------------- evaluation as a relation *)
Definition evals (e : expr) (s : state) (v : val) (s' : state) : Prop :=
  exists n, eval n e s = RVal v s'.

Lemma evals_fuel {e s v s' n} m : eval n e s = RVal v s' -> n <= m -> eval m e s = RVal v s'.
Proof. intros H. apply (eval_mono m H). discriminate. Qed.

Lemma evals_val v s : evals (Val v) s v s.
Proof. exists 1. reflexivity. Qed.

Lemma evals_of_val v s w s1 : evals (Val v) s w s1 -> w = v /\ s1 = s.
Proof. intros [n H]. destruct n; [discriminate|]. cbn in H. injection H as <- <-. auto. Qed.

(* ---------------------------------------------------------------- evaluation contexts *)
Lemma fill_decompose f e s w s1 :
  evals (fill f e) s w s1 -> exists v sa, evals e s v sa /\ evals (fill f (Val v)) sa w s1.
Proof.
  intros [[|n] H]; [discriminate|]. rewrite eval_fill in H. apply rbind_val in H as (v & sa & E & H).
  exists v, sa. split; [exists n; exact E|exists (S n); exact H].
Qed.

Lemma fill_compose f {e s v sa w s1} :
  evals e s v sa -> evals (fill f (Val v)) sa w s1 -> evals (fill f e) s w s1.
Proof.
  intros [m Hm] [n Hn]. exists (S (m + n)).
  rewrite eval_fill, (evals_fuel (m + n) Hm) by lia. apply (evals_fuel _ Hn). lia.
Qed.

(* (e, s) evaluates to whatever (e', s') evaluates to: e' may stand for e *)
Definition sim2 (e : expr) (s : state) (e' : expr) (s' : state) : Prop :=
  forall w s1, evals e' s' w s1 -> evals e s w s1.

Lemma sim2_fill f e s e' s' : sim2 e s e' s' -> sim2 (fill f e) s (fill f e') s'.
Proof.
  intros H w s1 Hev. destruct (fill_decompose _ _ _ _ _ Hev) as (v & sa & He & Hf).
  exact (fill_compose f (H _ _ He) Hf).
Qed.

Lemma sim2_val {e s v s'} : evals e s v s' -> sim2 e s (Val v) s'.
Proof. intros H w s1 Hv. apply evals_of_val in Hv as [-> ->]. exact H. Qed.

Lemma sim2_trans e1 s1 e2 s2 e3 s3 : sim2 e1 s1 e2 s2 -> sim2 e2 s2 e3 s3 -> sim2 e1 s1 e3 s3.
Proof. intros H1 H2 w s' H. apply H1, H2, H. Qed.

Lemma sim2_apps e s e' s' args : sim2 e s e' s' ->
  sim2 (fold_left App (map Val args) e) s (fold_left App (map Val args) e') s'.
Proof.
  revert e e'; induction args as [|a args IH]; intros e e' H; cbn [map fold_left]; [exact H|].
  apply IH, (sim2_fill (FAppL a)), H.
Qed.

(* arguments that evaluate without touching the store can be replaced by their values *)
Lemma evals_apps_args : forall es vs F s w s',
  Forall2 (fun a v => forall s0, evals a s0 v s0) es vs ->
  evals (fold_left App (map Val vs) F) s w s' -> evals (fold_left App es F) s w s'.
Proof.
  induction es as [|a es IH]; intros vs F s w s' HF H; inversion HF as [|? v ? vs' Ha HF']; subst; cbn [map fold_left] in *; [exact H|].
  eapply IH; [exact HF'|]. revert H. apply sim2_apps. intros w0 s0'. apply (fill_compose (FAppR F)), Ha.
Qed.

(* ---------------------------------------------------------------- steps at the head *)
Lemma sim2_head e s e' s' : (forall n, eval (S (S n)) e s = eval (S n) e' s') -> sim2 e s e' s'.
Proof. intros Hs w s1 [n H]. exists (S (S n)). rewrite Hs. apply (evals_fuel _ H). lia. Qed.

Lemma sim2_rec f x b s : sim2 (Rec f x b) s (Val (RecV f x b)) s.
Proof. apply sim2_val. exists 1. reflexivity. Qed.

Lemma evals_beta f x b v s w s' :
  evals (subst' x v (subst' f (RecV f x b) b)) s w s' -> evals (App (Val (RecV f x b)) (Val v)) s w s'.
Proof. apply sim2_head. intros n. apply eval_app_rec. Qed.

Lemma sim2_if (b : bool) e1 e2 s : sim2 (If (Val (LitV (LitBool b))) e1 e2) s (if b then e1 else e2) s.
Proof. apply sim2_head. intros n. destruct b; reflexivity. Qed.

Lemma sim2_prim_partial p args a s : Nat.ltb (length (args ++ [a])) (arity p) = true ->
  sim2 (App (Val (PrimV p args)) (Val a)) s (Val (PrimV p (args ++ [a]))) s.
Proof. intros Hl. apply sim2_val. exists 2. rewrite eval_app_prim, Hl. reflexivity. Qed.

Lemma sim2_prim_exec p args a s v s' :
  Nat.ltb (length (args ++ [a])) (arity p) = false -> is_loop p = false -> exec_prim p (args ++ [a]) s = RVal v s' ->
  sim2 (App (Val (PrimV p args)) (Val a)) s (Val v) s'.
Proof. intros Hl Hp Hx. apply sim2_val. exists 2. rewrite eval_app_prim, Hl, Hp. exact Hx. Qed.

Lemma sim2_prim_loop p args a s e' :
  Nat.ltb (length (args ++ [a])) (arity p) = false -> is_loop p = true -> expand_loop p (args ++ [a]) s = Some e' ->
  sim2 (App (Val (PrimV p args)) (Val a)) s e' s.
Proof. intros Hl Hp Hx. apply sim2_head. intros n. rewrite eval_app_prim, Hl, Hp, Hx. reflexivity. Qed.

(* ---------------------------------------------------------------- the rules *)
Lemma evals_unop op e s v s' r :
  evals e s v s' -> un_op_eval op v = Some r -> evals (UnOp op e) s r s'.
Proof.
  intros H Hop. apply (fill_compose (FUnOp op) H). exists 2. cbn. rewrite Hop. reflexivity.
Qed.

Lemma evals_binop op e1 e2 s v1 v2 s1 s2 r :
  evals e2 s v2 s1 -> evals e1 s1 v1 s2 -> bin_op_eval op v1 v2 = Some r ->
  evals (BinOp op e1 e2) s r s2.
Proof.
  intros H2 H1 Hop. apply (fill_compose (FBinR op e1) H2), (fill_compose (FBinL op v2) H1).
  exists 2. cbn. rewrite Hop. reflexivity.
Qed.

Lemma evals_if e0 e1 e2 s (b : bool) s1 v s2 :
  evals e0 s (LitV (LitBool b)) s1 -> evals (if b then e1 else e2) s1 v s2 ->
  evals (If e0 e1 e2) s v s2.
Proof. intros H0 H1. exact (fill_compose (FIf e1 e2) H0 (sim2_if b e1 e2 s1 v s2 H1)). Qed.

Lemma evals_letin x e1 e2 s v s1 w s2 :
  evals e1 s v s1 -> evals (subst' x v e2) s1 w s2 -> evals (LetIn x e1 e2) s w s2.
Proof.
  intros H1 H2. apply (fill_compose (FAppR _) H1), (sim2_fill (FAppL v) _ _ _ _ (sim2_rec BAnon x e2 s1)).
  apply evals_beta, H2.
Qed.

Lemma evals_seq e1 e2 s v s1 w s2 : evals e1 s v s1 -> evals e2 s1 w s2 -> evals (Seq e1 e2) s w s2.
Proof. intros H1 H2. exact (evals_letin BAnon e1 e2 s v s1 w s2 H1 H2). Qed.

Lemma evals_prim1 p e s a s1 v s2 :
  arity p = 1 -> is_loop p = false ->
  evals e s a s1 -> exec_prim p [a] s1 = RVal v s2 ->
  evals (App (Val (PrimV p [])) e) s v s2.
Proof.
  intros Ha Hl He Hx. apply (fill_compose (FAppR _) He).
  apply (sim2_prim_exec p [] a s1 v s2); [cbn; rewrite Ha; reflexivity|exact Hl|exact Hx|apply evals_val].
Qed.

Lemma evals_prim2 p e1 e2 s a1 a2 s1 s2 v s3 :
  arity p = 2 -> is_loop p = false ->
  evals e2 s a2 s1 -> evals e1 s1 a1 s2 -> exec_prim p [a1; a2] s2 = RVal v s3 ->
  evals (App (App (Val (PrimV p [])) e1) e2) s v s3.
Proof.
  intros Ha Hl H2 H1 Hx. apply (fill_compose (FAppR _) H2).
  apply (sim2_fill (FAppL a2) _ s1 (Val (PrimV p [a1])) s2).
  - apply sim2_val, (fill_compose (FAppR _) H1).
    apply (sim2_prim_partial p [] a1 s2); [cbn; rewrite Ha; reflexivity|apply evals_val].
  - apply (sim2_prim_exec p [a1] a2 s2 v s3); [cbn; rewrite Ha; reflexivity|exact Hl|exact Hx|apply evals_val].
Qed.

(* ---------------------------------------------------------------- substitution *)
Lemma subst_subst_same x v w e : subst x w (subst x v e) = subst x v e.
Proof.
  induction e as [| z |f z b| | | | | | | |]; cbn [subst]; try congruence.
  - destruct (String.eqb x z) eqn:E; cbn [subst]; [reflexivity|]. rewrite E. reflexivity.
  - destruct (binder_is f x || binder_is z x) eqn:E; cbn [subst]; rewrite E; [reflexivity|]. congruence.
Qed.

Lemma subst_subst_comm x y v w e :
  x <> y -> subst x v (subst y w e) = subst y w (subst x v e).
Proof.
  intros Hne. induction e as [| z |f z b| | | | | | | |]; cbn [subst]; try congruence.
  - destruct (String.eqb y z) eqn:E1; destruct (String.eqb x z) eqn:E2; cbn [subst]; rewrite ?E1, ?E2; try reflexivity.
    apply String.eqb_eq in E1, E2. congruence.
  - destruct (binder_is f y || binder_is z y) eqn:E1; destruct (binder_is f x || binder_is z x) eqn:E2;
      cbn [subst]; rewrite ?E1, ?E2; try reflexivity. congruence.
Qed.

Definition csub := list (string * val).

Fixpoint close (r : csub) (e : expr) : expr :=
  match r with
  | [] => e
  | (x, v) :: r' => close r' (subst x v e)
  end.

Fixpoint clookup (x : string) (r : csub) : option val :=
  match r with
  | [] => None
  | (y, v) :: r' => if String.eqb x y then Some v else clookup x r'
  end.

Fixpoint cremove (x : string) (r : csub) : csub :=
  match r with
  | [] => []
  | (y, v) :: r' => if String.eqb x y then cremove x r' else (y, v) :: cremove x r'
  end.

Lemma close_val r v : close r (Val v) = Val v.
Proof. induction r as [|[x w] r IH]; cbn [close subst]; auto. Qed.

(* a literal (Lit, BoolE, UnitE ...) under a closing substitution *)
Lemma evals_close_val r v s : evals (close r (Val v)) s v s.
Proof. rewrite close_val. apply evals_val. Qed.

Lemma close_app r a b : close r (App a b) = App (close r a) (close r b).
Proof. revert a b; induction r as [|[x w] r IH]; intros; cbn [close subst]; auto. Qed.

Lemma close_unop r op a : close r (UnOp op a) = UnOp op (close r a).
Proof. revert a; induction r as [|[x w] r IH]; intros; cbn [close subst]; auto. Qed.

Lemma close_binop r op a b : close r (BinOp op a b) = BinOp op (close r a) (close r b).
Proof. revert a b; induction r as [|[x w] r IH]; intros; cbn [close subst]; auto. Qed.

Lemma close_if r a b c : close r (If a b c) = If (close r a) (close r b) (close r c).
Proof. revert a b c; induction r as [|[x w] r IH]; intros; cbn [close subst]; auto. Qed.

Lemma close_var r x : close r (Var x) = match clookup x r with Some v => Val v | None => Var x end.
Proof.
  induction r as [|[y w] r IH]; cbn [close subst clookup]; auto.
  rewrite String.eqb_sym. destruct (String.eqb x y) eqn:E.
  - apply close_val.
  - exact IH.
Qed.

Definition bind (x : binder) (v : val) (r : csub) : csub :=
  match x with BNamed y => (y, v) :: r | BAnon => r end.

Definition cremove' (x : binder) (r : csub) : csub :=
  match x with BNamed y => cremove y r | BAnon => r end.

Lemma close_lam r x b : close r (Rec BAnon x b) = Rec BAnon x (close (cremove' x r) b).
Proof.
  revert b; induction r as [|[y w] r IH]; intros b; [destruct x; reflexivity|].
  destruct x as [|x]; cbn [close subst binder_is orb cremove' cremove]; [apply IH|].
  rewrite String.eqb_sym. destruct (String.eqb x y); cbn [close]; apply IH.
Qed.

(* entering a binder: the body closed without x, then x substituted *)
Lemma subst_close x v r e : subst x v (close (cremove x r) e) = close ((x, v) :: r) e.
Proof.
  cbn [close]. revert e; induction r as [|[y w] r IH]; intros e; cbn [close cremove]; [reflexivity|].
  destruct (String.eqb x y) eqn:E.
  - apply String.eqb_eq in E; subst y. rewrite subst_subst_same. apply IH.
  - apply String.eqb_neq in E. cbn [close]. rewrite IH, (subst_subst_comm x y v w e) by congruence. reflexivity.
Qed.

Lemma close_letin r x e1 e2 :
  close r (LetIn x e1 e2) = LetIn x (close r e1) (close (cremove' x r) e2).
Proof. unfold LetIn, Lam. rewrite close_app, close_lam. reflexivity. Qed.

Lemma subst'_close x v r e : subst' x v (close (cremove' x r) e) = close (bind x v r) e.
Proof. destruct x as [|y]; cbn [subst' cremove' bind]; [reflexivity|apply subst_close]. Qed.

Lemma evals_close_letin r x e1 e2 s v s1 w s2 :
  evals (close r e1) s v s1 -> evals (close (bind x v r) e2) s1 w s2 ->
  evals (close r (LetIn x e1 e2)) s w s2.
Proof.
  intros H1 H2. rewrite close_letin. eapply evals_letin; [exact H1|]. rewrite subst'_close. exact H2.
Qed.

Lemma close_app_list a b e : close (a ++ b) e = close b (close a e).
Proof. revert e; induction a as [|[x v] a IH]; intros e; cbn [app close]; auto. Qed.

Lemma close_apps r es F : close r (fold_left App es F) = fold_left App (map (close r) es) (close r F).
Proof. revert F; induction es as [|a es IH]; intros F; cbn [map fold_left]; [reflexivity|]. rewrite IH, close_app. reflexivity. Qed.

Lemma close_subst_comm x v r e : ~ In x (map fst r) -> close r (subst x v e) = subst x v (close r e).
Proof.
  revert e; induction r as [|[y w] r IH]; intros e Hn; cbn [close]; auto.
  cbn [map fst In] in Hn. rewrite <- IH by tauto. f_equal. apply subst_subst_comm. intros ->. tauto.
Qed.

Lemma close_rev_nodup : forall r e, NoDup (map fst r) -> close (rev r) e = close r e.
Proof.
  induction r as [|[x v] r IH]; intros e Hn; [reflexivity|]. cbn [rev]. inversion Hn; subst.
  rewrite close_app_list. cbn [close]. rewrite IH by assumption. symmetry. apply close_subst_comm. assumption.
Qed.

Lemma close_snoc_nofree r x v e :
  (forall w, subst x w e = e) -> ~ In x (map fst r) -> close (r ++ [(x, v)]) e = close r e.
Proof. intros Hn Hx. rewrite close_app_list. cbn [close]. rewrite <- close_subst_comm, Hn by exact Hx. reflexivity. Qed.

(* ---------------------------------------------------------------- the protocol of a call *)
(* sim2 from every state to the same state *)
Definition sim (e e' : expr) : Prop := forall s w s', evals e' s w s' -> evals e s w s'.

Lemma sim_apps e e' args : sim e e' -> sim (fold_left App (map Val args) e) (fold_left App (map Val args) e').
Proof. intros H s. apply sim2_apps. exact (H s). Qed.

Lemma sim_trans a b c : sim a b -> sim b c -> sim a c.
Proof. intros H1 H2 s w s' H. apply H1, H2, H. Qed.

Lemma sim_beta p b v : sim (App (Lam (BNamed p) b) (Val v)) (subst p v b).
Proof. intros s w s' H. apply (evals_letin (BNamed p) (Val v) b s v s w s'); [apply evals_val|exact H]. Qed.

Lemma subst_lams x v ps e : ~ In x ps -> subst x v (lams ps e) = lams ps (subst x v e).
Proof.
  induction ps as [|p ps IH]; cbn [lams]; intros Hn; auto.
  unfold Lam. cbn [subst binder_is orb]. destruct (String.eqb x p) eqn:E.
  - apply String.eqb_eq in E. subst. exfalso. apply Hn. left; reflexivity.
  - rewrite IH; [reflexivity|]. intros H. apply Hn. right; exact H.
Qed.

Lemma sim_beta_rec f p b v : f <> p ->
  sim (App (Val (RecV (BNamed f) (BNamed p) b)) (Val v)) (subst f (RecV (BNamed f) (BNamed p) b) (subst p v b)).
Proof.
  intros Hfp s w s' H. apply evals_beta. cbn [subst']. rewrite (subst_subst_comm p f) by congruence. exact H.
Qed.

Lemma sim_lams : forall ps args b, NoDup ps -> length args = length ps ->
  sim (fold_left App (map Val args) (lams ps b)) (close (combine ps args) b).
Proof.
  induction ps as [|p ps IH]; intros [|a args] b Hn Hl; cbn in Hl; try discriminate.
  - intros s w s' H. exact H.
  - cbn [lams map fold_left combine close]. inversion Hn; subst.
    eapply sim_trans; [apply sim_apps, sim_beta|]. rewrite subst_lams by assumption. apply IH; [assumption|lia].
Qed.

Lemma map_fst_combine {X Y} (l1 : list X) (l2 : list Y) : length l1 = length l2 -> map fst (combine l1 l2) = l1.
Proof. revert l2; induction l1 as [|x l1 IH]; intros [|y l2] H; cbn in *; try discriminate; auto. f_equal. apply IH. lia. Qed.

(* the emitted definition applied to all its arguments enters the body with
   the parameters bound to the arguments and its own name to itself *)
Lemma call_protocol name p ps body args s v s' :
  NoDup (name :: p :: ps) -> length args = length (p :: ps) ->
  evals (close (rev (combine (p :: ps) args) ++ [(name, RecV (BNamed name) (BNamed p) (lams ps body))]) body) s v s' ->
  evals (fold_left App (map Val args) (Val (RecV (BNamed name) (BNamed p) (lams ps body)))) s v s'.
Proof.
  intros Hnd Hlen Hev. set (F := RecV (BNamed name) (BNamed p) (lams ps body)) in *.
  inversion Hnd as [|? ? Hname Hnd1]; subst. inversion Hnd1 as [|? ? Hp1 Hnd2]; subst.
  destruct args as [|a1 args]; [discriminate|]. cbn [length] in Hlen.
  assert (Hlps : length args = length ps) by lia.
  rewrite close_app_list in Hev.
  rewrite close_rev_nodup in Hev by (rewrite map_fst_combine by (cbn [length]; lia); constructor; assumption).
  cbn [combine close] in Hev.
  rewrite <- close_subst_comm in Hev by (rewrite map_fst_combine by lia; intros Hc; apply Hname; right; exact Hc).
  cbn [map fold_left].
  assert (Hne : name <> p) by (intros ->; apply Hname; left; reflexivity).
  eapply (sim_apps _ _ args (sim_beta_rec name p (lams ps body) a1 Hne)).
  rewrite !subst_lams by (intros Hc; first [apply Hp1, Hc | apply Hname; right; exact Hc]).
  apply (sim_lams ps args _ Hnd2 Hlps). exact Hev.
Qed.

(* The definition the translators emit for a function (recursion binder, first
   parameter, nested lambdas) and the application the callers emit for it. *)
Lemma call_header name ps body F args s v s' :
  match ps with
  | [] => Some (RecV (BNamed name) BAnon body)
  | p :: ps' => Some (RecV (BNamed name) (BNamed p) (lams ps' body))
  end = Some F ->
  NoDup (name :: ps) -> length args = length ps ->
  evals (close (rev (combine ps args) ++ [(name, F)]) body) s v s' ->
  evals (match args with [] => App (Val F) UnitE | _ => fold_left App (map Val args) (Val F) end) s v s'.
Proof.
  intros HF Hnd Hlen Hev. destruct ps as [|p ps]; destruct args as [|a args]; try discriminate Hlen; injection HF as <-.
  - (* no parameters: the function is applied to #() *)
    apply evals_beta, Hev.
  - apply call_protocol; assumption.
Qed.

(* ---------------------------------------------------------------- environments *)
Definition val_of (b : gbinding) : val :=
  match b with Imm v => v | Cell b => LitV (LitLoc b 0) end.

Definition cs_of (r : genv) : csub := map (fun p => (fst p, val_of (snd p))) r.

(* lookups in the closing substitution of an environment, possibly followed by
   more bindings E of lower priority (the function's own name, for a call) *)
Lemma clookup_cs_app {x r E k} : glookup x r = Some k -> clookup x (cs_of r ++ E) = Some (val_of k).
Proof.
  induction r as [|[y k'] r IH]; cbn [glookup cs_of map app clookup fst snd]; [discriminate|].
  destruct (String.eqb x y); [intros [= <-]; reflexivity|exact IH].
Qed.

Lemma clookup_cs_self f r F : glookup f r = None -> clookup f (cs_of r ++ [(f, F)]) = Some F.
Proof.
  induction r as [|[y k'] r IH]; cbn [glookup cs_of map app clookup fst snd].
  - rewrite String.eqb_refl. reflexivity.
  - destruct (String.eqb f y); [discriminate|exact IH].
Qed.

Lemma cs_of_rev_combine ps args :
  cs_of (rev (combine ps (map Imm args))) = rev (combine ps args).
Proof.
  unfold cs_of. rewrite map_rev. f_equal. revert args; induction ps as [|p ps IH]; intros [|a args]; cbn; auto. f_equal. apply IH.
Qed.

(* the translator's view of the variables agrees with the run-time environment *)
Inductive agree : tenv -> genv -> state -> Prop :=
| ag_nil s : agree [] [] s
| ag_imm x t v G r s : agree G r s -> agree ((x, (false, t)) :: G) ((x, Imm v) :: r) s
| ag_cell x t b v G r s : agree G r s -> read_cell b s = Some v -> agree ((x, (true, t)) :: G) ((x, Cell b) :: r) s.

Definition cells_kept (s s' : state) : Prop :=
  forall b v, read_cell b s = Some v -> exists v', read_cell b s' = Some v'.

Lemma cells_kept_refl s : cells_kept s s.
Proof. intros b v H. eauto. Qed.

Lemma cells_kept_trans {s1 s2 s3} : cells_kept s1 s2 -> cells_kept s2 s3 -> cells_kept s1 s3.
Proof. intros H1 H2 b v H. destruct (H1 _ _ H) as [v' H']. eapply H2; eauto. Qed.

Lemma agree_kept {G r s s'} : agree G r s -> cells_kept s s' -> agree G r s'.
Proof.
  induction 1 as [s|x t v G r s H IH|x t b v G r s H IH Hc]; intros Hk.
  - constructor.
  - constructor. auto.
  - destruct (Hk _ _ Hc) as [v' Hv']. econstructor; eauto.
Qed.

(* a variable goose knows is bound at run time, to a cell if goose wrapped it *)
Lemma agree_lookup {G r s x k t} :
  agree G r s -> tlookup x G = Some (k, t) ->
  if k then exists b v, glookup x r = Some (Cell b) /\ read_cell b s = Some v
  else exists v, glookup x r = Some (Imm v).
Proof.
  induction 1 as [s|y t' v G r s H IH|y t' b v G r s H IH Hc]; cbn [tlookup glookup]; intros Hl.
  - discriminate.
  - destruct (String.eqb x y); [injection Hl as <- <-; eauto|exact (IH Hl)].
  - destruct (String.eqb x y); [injection Hl as <- <-; eauto|exact (IH Hl)].
Qed.

Lemma agree_none G r s x : agree G r s -> tlookup x G = None -> glookup x r = None.
Proof.
  induction 1 as [s|y t v G r s H IH|y t b v G r s H IH Hc]; cbn [tlookup glookup]; auto;
    destruct (String.eqb x y); auto; discriminate.
Qed.

(* a variable goose wrapped is a cell the closing substitution knows *)
Lemma agree_cell {G r s} E {y t} : agree G r s -> tlookup y G = Some (true, t) ->
  exists b, glookup y r = Some (Cell b) /\ clookup y (cs_of r ++ E) = Some (LitV (LitLoc b 0)).
Proof.
  intros Hag Hl. destruct (agree_lookup Hag Hl) as (b & old & Hg & Hr).
  exists b. rewrite (clookup_cs_app Hg). auto.
Qed.

Lemma agree_snoc G r s x t v : agree G r s -> agree (G ++ [(x, (false, t))]) (r ++ [(x, Imm v)]) s.
Proof.
  induction 1 as [s|y t' w G r s H IH|y t' b w G r s H IH Hc]; cbn [app].
  - repeat constructor.
  - constructor. exact IH.
  - econstructor; eauto.
Qed.

Lemma agree_params ps args s :
  length args = length ps ->
  agree (params_env ps) (rev (combine (map fst ps) (map Imm args))) s.
Proof.
  revert args; induction ps as [|[p t] ps IH]; intros [|a args] Hlen; cbn in Hlen; try discriminate.
  - constructor.
  - unfold params_env. cbn [map rev combine fst snd]. apply agree_snoc. apply IH. lia.
Qed.

(* ---------------------------------------------------------------- cells *)
(* a cell is a block of one value; writing replaces the value *)
Lemma read_cell_some b s v : read_cell b s = Some v <-> nth_error (heap s) b = Some (BCells [v]).
Proof.
  unfold read_cell. destruct (nth_error (heap s) b) as [[[|c [|? ?]]|]|]; split; intros H; try discriminate H; injection H as ->; reflexivity.
Qed.

Lemma write_cell_some b v s s' : write_cell b v s = Some s' ->
  exists old, read_cell b s = Some old /\ s' = set_block b (BCells [v]) s.
Proof.
  unfold write_cell, read_cell. destruct (nth_error (heap s) b) as [[[|c [|? ?]]|]|]; try discriminate. intros [= <-]. eauto.
Qed.

Lemma scalar_ty_of t : scalar (ty_of t) = true.
Proof. destruct t; reflexivity. Qed.

Lemma exec_load t b v s :
  read_cell b s = Some v -> exec_prim (PLoad (ty_of t)) [LitV (LitLoc b 0)] s = RVal v s.
Proof. intros H. apply read_cell_some in H. cbn [exec_prim]. rewrite (load_cell _ _ _ _ (scalar_ty_of t) H). reflexivity. Qed.

Lemma exec_store t b v s s' :
  write_cell b v s = Some s' -> exec_prim (PStore (ty_of t)) [LitV (LitLoc b 0); v] s = RVal (LitV LitUnit) s'.
Proof.
  intros H. apply write_cell_some in H as (old & Hr & ->). apply read_cell_some in Hr.
  cbn [exec_prim]. rewrite (store_cell _ _ _ _ v (scalar_ty_of t) Hr). reflexivity.
Qed.

Lemma alloc_kept {v s b s'} : alloc_cell v s = (b, s') -> cells_kept s s'.
Proof.
  intros [= _ <-] b' w H. exists w. apply read_cell_some. apply read_cell_some in H. cbn [heap].
  rewrite nth_error_app1; [exact H|]. apply nth_error_Some. congruence.
Qed.

Lemma read_alloc_new {v s b s'} : alloc_cell v s = (b, s') -> read_cell b s' = Some v.
Proof. intros [= <- <-]. apply read_cell_some. cbn [heap]. rewrite nth_error_app2, Nat.sub_diag by lia. reflexivity. Qed.

Lemma write_kept {b v s s'} : write_cell b v s = Some s' -> cells_kept s s'.
Proof.
  intros Hw b' w Hr. apply write_cell_some in Hw as (old & Ho & ->). apply read_cell_some in Hr, Ho.
  destruct (Nat.eqb b b') eqn:Eb; [exists v|exists w]; apply read_cell_some; cbn [set_block heap]; rewrite nth_error_set_nth, Eb.
  - apply Nat.eqb_eq in Eb. subst b'. rewrite Ho. reflexivity.
  - exact Hr.
Qed.

Lemma close_load r t e : close r (Load t e) = Load t (close r e).
Proof. unfold Load. rewrite close_app, close_val. reflexivity. Qed.

Lemma close_store r t l e : close r (Store t l e) = Store t (close r l) (close r e).
Proof. unfold Store. rewrite !close_app, close_val. reflexivity. Qed.

(* reading and updating the cell of a variable, under any closing substitution
   that maps the variable to its cell *)
Lemma evals_load cs x t b v s :
  clookup x cs = Some (LitV (LitLoc b 0)) -> read_cell b s = Some v ->
  evals (close cs (Load (ty_of t) (Var x))) s v s.
Proof.
  intros Hc Hr. rewrite close_load, close_var, Hc.
  eapply evals_prim1; [reflexivity|reflexivity|apply evals_val|]. apply exec_load, Hr.
Qed.

Lemma evals_store cs x t b e v s s1 s2 :
  clookup x cs = Some (LitV (LitLoc b 0)) -> evals (close cs e) s v s1 -> write_cell b v s1 = Some s2 ->
  evals (close cs (Store (ty_of t) (Var x) e)) s (LitV LitUnit) s2.
Proof.
  intros Hc He Hw. rewrite close_store, close_var, Hc.
  eapply evals_prim2; [reflexivity|reflexivity|exact He|apply evals_val|]. apply exec_store, Hw.
Qed.

Lemma evals_ref_to cs t e v s s1 b s2 :
  evals (close cs e) s v s1 -> alloc_cell v s1 = (b, s2) ->
  evals (close cs (RefTo (ty_of t) e)) s (LitV (LitLoc b 0)) s2.
Proof.
  intros He [= <- <-]. unfold RefTo. rewrite close_app, close_val.
  eapply evals_prim1; [reflexivity|reflexivity|exact He|]. destruct t; reflexivity.
Qed.

Lemma evals_ref_zero cs t s b s2 :
  alloc_cell (zero_of t) s = (b, s2) -> evals (close cs (RefZero (ty_of t))) s (LitV (LitLoc b 0)) s2.
Proof.
  intros [= <- <-]. unfold RefZero. rewrite close_app, !close_val.
  eapply evals_prim1; [reflexivity|reflexivity|apply evals_val|]. destruct t; reflexivity.
Qed.

Lemma agree_alloc {G r s s1} x t {v b s2} :
  agree G r s -> cells_kept s s1 -> alloc_cell v s1 = (b, s2) ->
  agree ((x, (true, t)) :: G) ((x, Cell b) :: r) s2 /\ cells_kept s s2.
Proof.
  intros Hag Hk Ha. pose proof (cells_kept_trans Hk (alloc_kept Ha)) as Hk2.
  split; [|exact Hk2]. econstructor; [eapply agree_kept; eauto|exact (read_alloc_new Ha)].
Qed.

(* ---------------------------------------------------------------- operators *)
Lemma subst_tr_binop x v op a b e :
  tr_binop op a b = Some e -> tr_binop op (subst x v a) (subst x v b) = Some (subst x v e).
Proof. destruct op; cbn [tr_binop]; intros H; try discriminate H; injection H as <-; reflexivity. Qed.

Lemma close_tr_binop r op a b e :
  tr_binop op a b = Some e -> tr_binop op (close r a) (close r b) = Some (close r e).
Proof. revert a b e; induction r as [|[x v] r IH]; intros a b e H; cbn [close]; [exact H|]. apply IH, subst_tr_binop, H. Qed.

Definition strict (op : gop) : bool := match op with OLAnd | OLOr => false | _ => true end.

Lemma go_expr_strict {r s op a b} : strict op = true ->
  go_expr r s (EBin op a b) =
  match go_expr r s a, go_expr r s b with Some va, Some vb => go_binop op va vb | _, _ => None end.
Proof. destruct op; try discriminate; reflexivity. Qed.

(* A strict operator.  goose prints a > b as b < a, and GooseLang evaluates the
   right operand of the printed operator first: the store is threaded through
   the operands in that order (for operands without effects, s = s1 = s2). *)
Lemma tr_binop_evals op a b e va vb v s s1 s2 :
  go_binop op va vb = Some v -> tr_binop op a b = Some e ->
  match op with
  | OGt | OGe => evals a s va s1 /\ evals b s1 vb s2
  | _ => evals b s vb s1 /\ evals a s1 va s2
  end ->
  evals e s v s2.
Proof.
  intros Hgo Htr Hab.
  destruct op; try discriminate Hgo; cbn [tr_binop] in Htr; injection Htr as <-;
    destruct Hab as [H1 H2];
    destruct va as [[na| | |ba| | | |]| | |]; try discriminate;
    destruct vb as [[nb| | |bb| | | |]| | |]; try discriminate; cbn [go_binop] in Hgo.
  all: try (injection Hgo as <-).
  all: try (eapply evals_binop; [exact H1|exact H2|reflexivity]).
  (* division and remainder: the divisor is not zero *)
  - destruct (nb =? 0)%Z eqn:E; [discriminate|]. injection Hgo as <-.
    eapply evals_binop; [exact H1|exact H2|]. cbn [bin_op_eval word_op]. rewrite E. reflexivity.
  - destruct (nb =? 0)%Z eqn:E; [discriminate|]. injection Hgo as <-.
    eapply evals_binop; [exact H1|exact H2|]. cbn [bin_op_eval word_op]. rewrite E. reflexivity.
  (* != is printed as the negation of ==, on integers and on booleans *)
  - eapply evals_unop; [eapply evals_binop; [exact H1|exact H2|reflexivity]|reflexivity].
  - eapply evals_unop; [eapply evals_binop; [exact H1|exact H2|reflexivity]|reflexivity].
Qed.

Lemma go_binop_sound op va vb v a b s e :
  go_binop op va vb = Some v ->
  evals a s va s -> evals b s vb s ->
  tr_binop op a b = Some e ->
  evals e s v s.
Proof.
  intros Hgo Ha Hb Htr. apply (tr_binop_evals op a b e va vb v s s s Hgo Htr). destruct op; auto.
Qed.

(* x op= e and x++ / x--: the emitted store of (load x) op e; the right-hand
   side is evaluated first, then the variable is read *)
Lemma evals_update cs x t b op e rhs v s s1 old nv s2 :
  clookup x cs = Some (LitV (LitLoc b 0)) -> assign_op op = true ->
  tr_binop op (Load (ty_of t) (Var x)) e = Some rhs ->
  evals (close cs e) s v s1 -> read_cell b s1 = Some old -> go_binop op old v = Some nv -> write_cell b nv s1 = Some s2 ->
  evals (close cs (Store (ty_of t) (Var x) rhs)) s (LitV LitUnit) s2.
Proof.
  intros Hc Hop Htr He Hr Hgo Hw. eapply evals_store; [exact Hc| |exact Hw].
  eapply tr_binop_evals; [exact Hgo|apply close_tr_binop, Htr|].
  destruct op; try discriminate Hop; (split; [exact He|eapply evals_load; [exact Hc|exact Hr]]).
Qed.

Lemma evals_incdec cs x t b (inc : bool) s old nv s2 :
  clookup x cs = Some (LitV (LitLoc b 0)) -> read_cell b s = Some old ->
  go_binop (if inc then OAdd else OSub) old (LitV (LitInt 1)) = Some nv -> write_cell b nv s = Some s2 ->
  evals (close cs (Store (ty_of t) (Var x) (BinOp (if inc then PlusOp else MinusOp) (Load (ty_of t) (Var x)) (Lit 1)))) s (LitV LitUnit) s2.
Proof.
  intros Hc Hr Hgo Hw.
  eapply (evals_update cs x t b (if inc then OAdd else OSub) (Lit 1)); [exact Hc| | |apply evals_close_val|exact Hr|exact Hgo|exact Hw];
    destruct inc; reflexivity.
Qed.

Lemma tr_binop_short op a b e (ba : bool) s s1 v s2 :
  tr_binop op a b = Some e -> evals a s (LitV (LitBool ba)) s1 ->
  match op with
  | OLAnd => if ba then evals b s1 v s2 else v = LitV (LitBool false) /\ s2 = s1
  | OLOr => if ba then v = LitV (LitBool true) /\ s2 = s1 else evals b s1 v s2
  | _ => False
  end ->
  evals e s v s2.
Proof.
  destruct op; try contradiction; cbn [tr_binop]; intros [= <-] Ha H;
    (eapply evals_if; [exact Ha|]); destruct ba; try exact H; destruct H as [-> ->]; apply evals_val.
Qed.

(* ---------------------------------------------------------------- expressions *)
Theorem tr_expr_correct_in E G r s : agree G r s ->
  forall e e' v, tr_expr G e = Some e' -> go_expr r s e = Some v ->
  evals (close (cs_of r ++ E) e') s v s.
Proof.
  intros Hag. induction e as [n|b|x|op a IHa b IHb|a IHa]; intros e' v Htr Hgo.
  - cbn in Htr, Hgo. injection Htr as <-. injection Hgo as <-. apply evals_close_val.
  - cbn in Htr, Hgo. injection Htr as <-. injection Hgo as <-. apply evals_close_val.
  - cbn [tr_expr] in Htr. cbn [go_expr] in Hgo.
    destruct (tlookup x G) as [[[] t]|] eqn:Hl; [| |discriminate]; injection Htr as <-.
    + destruct (agree_lookup Hag Hl) as (b & w & Hg & Hr). rewrite Hg, Hr in Hgo. injection Hgo as <-.
      eapply evals_load; [|exact Hr]. rewrite (clookup_cs_app Hg). reflexivity.
    + destruct (agree_lookup Hag Hl) as (w & Hg). rewrite Hg in Hgo. injection Hgo as <-.
      rewrite close_var, (clookup_cs_app Hg). apply evals_val.
  - cbn [tr_expr] in Htr.
    destruct (tr_expr G a) as [a'|] eqn:Ea; [|discriminate].
    destruct (tr_expr G b) as [b'|] eqn:Eb; [|discriminate].
    apply (close_tr_binop (cs_of r ++ E)) in Htr.
    destruct (strict op) eqn:Hst; [|destruct op; try discriminate Hst].
    + rewrite (go_expr_strict Hst) in Hgo.
      destruct (go_expr r s a) as [va|] eqn:Ga; [|discriminate].
      destruct (go_expr r s b) as [vb|] eqn:Gb; [|discriminate].
      eapply go_binop_sound; [exact Hgo|apply (IHa _ _ eq_refl eq_refl)|apply (IHb _ _ eq_refl eq_refl)|exact Htr].
    + (* && *)
      cbn [go_expr] in Hgo. destruct (go_expr r s a) as [[[| | |ba| | | |]| | |]|] eqn:Ga; try discriminate.
      eapply tr_binop_short; [exact Htr|apply (IHa _ _ eq_refl eq_refl)|]. destruct ba; [|injection Hgo as <-; auto].
      destruct (go_expr r s b) as [[[| | |x| | | |]| | |]|] eqn:Gb; try discriminate. injection Hgo as <-. apply (IHb _ _ eq_refl eq_refl).
    + (* || *)
      cbn [go_expr] in Hgo. destruct (go_expr r s a) as [[[| | |ba| | | |]| | |]|] eqn:Ga; try discriminate.
      eapply tr_binop_short; [exact Htr|apply (IHa _ _ eq_refl eq_refl)|]. destruct ba; [injection Hgo as <-; auto|].
      destruct (go_expr r s b) as [[[| | |x| | | |]| | |]|] eqn:Gb; try discriminate. injection Hgo as <-. apply (IHb _ _ eq_refl eq_refl).
  - cbn [tr_expr] in Htr. destruct (tr_expr G a) as [a'|] eqn:Ea; [|discriminate]. injection Htr as <-.
    cbn [go_expr] in Hgo. destruct (go_expr r s a) as [[[| | |x| | | |]| | |]|] eqn:Ga; try discriminate. injection Hgo as <-.
    rewrite close_unop. eapply evals_unop; [apply (IHa _ _ eq_refl eq_refl)|reflexivity].
Qed.

Theorem tr_expr_correct G r s : agree G r s ->
  forall e e' v, tr_expr G e = Some e' -> go_expr r s e = Some v ->
  evals (close (cs_of r) e') s v s.
Proof. intros Hag e e' v Htr Hgo. rewrite <- (app_nil_r (cs_of r)). eapply tr_expr_correct_in; eauto. Qed.

(* ---------------------------------------------------------------- simple statements *)
Lemma simple_correct_in E {G r s st x e1 G' r1 s1} :
  agree G r s -> tr_simple G st = Some (x, e1, G') -> go_simple r s st = Some (r1, s1) ->
  exists v1, evals (close (cs_of r ++ E) e1) s v1 s1 /\ agree G' r1 s1 /\
             cs_of r1 = bind x v1 (cs_of r) /\ cells_kept s s1.
Proof.
  intros Hag Htr Hgo. pose proof (tr_expr_correct_in E _ _ _ Hag) as Hexpr.
  destruct st as [y e|y t [e|]|y e|op y e|inc y|c th el|e]; cbn [tr_simple go_simple] in Htr, Hgo; try discriminate.
  - (* y := e *)
    destruct (tr_expr G e) as [e'|] eqn:Et; [|discriminate]. injection Htr as <- <- <-.
    destruct (go_expr r s e) as [v|] eqn:Eg; [|discriminate]. injection Hgo as <- <-.
    exists v. repeat split; [eapply Hexpr; eauto|constructor; exact Hag|apply cells_kept_refl].
  - (* var y t = e *)
    destruct (tr_expr G e) as [e'|] eqn:Et; [|discriminate]. injection Htr as <- <- <-.
    destruct (go_expr r s e) as [v|] eqn:Eg; [|discriminate].
    destruct (alloc_cell v s) as [b s'] eqn:Ea. injection Hgo as <- <-.
    destruct (agree_alloc y t Hag (cells_kept_refl s) Ea) as [Hag' Hk].
    exists (LitV (LitLoc b 0)). repeat split; [|exact Hag'|exact Hk]. eapply evals_ref_to; [eapply Hexpr; eauto|exact Ea].
  - (* var y t *)
    injection Htr as <- <- <-.
    destruct (alloc_cell (zero_of t) s) as [b s'] eqn:Ea. injection Hgo as <- <-.
    destruct (agree_alloc y t Hag (cells_kept_refl s) Ea) as [Hag' Hk].
    exists (LitV (LitLoc b 0)). repeat split; [|exact Hag'|exact Hk]. apply evals_ref_zero, Ea.
  - (* y = e *)
    destruct (tlookup y G) as [[[] t]|] eqn:Hl; try discriminate.
    destruct (tr_expr G e) as [e'|] eqn:Et; [|discriminate]. injection Htr as <- <- <-.
    destruct (agree_cell E Hag Hl) as (b & Hg & Hloc). rewrite Hg in Hgo.
    destruct (go_expr r s e) as [v|] eqn:Eg; [|discriminate].
    destruct (write_cell b v s) as [s'|] eqn:Hw; [|discriminate]. injection Hgo as <- <-.
    pose proof (write_kept Hw) as Hk.
    exists (LitV LitUnit). repeat split; [|eapply agree_kept; eauto|exact Hk].
    eapply evals_store; [exact Hloc|eapply Hexpr; eauto|exact Hw].
  - (* y op= e *)
    destruct (tlookup y G) as [[[] t]|] eqn:Hl; try discriminate.
    destruct (tr_expr G e) as [e'|] eqn:Et; [|discriminate].
    destruct (assign_op op) eqn:Eop; [|discriminate].
    destruct (tr_binop op (Load (ty_of t) (Var y)) e') as [rhs|] eqn:Eb; [|discriminate]. injection Htr as <- <- <-.
    destruct (agree_cell E Hag Hl) as (b & Hg & Hloc). rewrite Hg in Hgo.
    destruct (go_expr r s e) as [v|] eqn:Eg; [|discriminate].
    destruct (read_cell b s) as [old|] eqn:Hr; [|discriminate].
    destruct (go_binop op old v) as [nv|] eqn:Ebin; [|discriminate].
    destruct (write_cell b nv s) as [s'|] eqn:Hw; [|discriminate]. injection Hgo as <- <-.
    pose proof (write_kept Hw) as Hk.
    exists (LitV LitUnit). repeat split; [|eapply agree_kept; eauto|exact Hk].
    eapply evals_update; [exact Hloc|exact Eop|exact Eb|eapply Hexpr; eauto|exact Hr|exact Ebin|exact Hw].
  - (* y++ / y-- *)
    destruct (tlookup y G) as [[[] t]|] eqn:Hl; try discriminate. injection Htr as <- <- <-.
    destruct (agree_cell E Hag Hl) as (b & Hg & Hloc). rewrite Hg in Hgo.
    destruct (read_cell b s) as [old|] eqn:Hr; [|discriminate].
    destruct (go_binop (if inc then OAdd else OSub) old (LitV (LitInt 1))) as [nv|] eqn:Ebin; [|discriminate].
    destruct (write_cell b nv s) as [s'|] eqn:Hw; [|discriminate]. injection Hgo as <- <-.
    pose proof (write_kept Hw) as Hk.
    exists (LitV LitUnit). repeat split; [|eapply agree_kept; eauto|exact Hk].
    eapply evals_incdec; eassumption.
Qed.

Lemma simple_correct {G r s st x e1 G' r1 s1} :
  agree G r s -> tr_simple G st = Some (x, e1, G') -> go_simple r s st = Some (r1, s1) ->
  exists v1, evals (close (cs_of r) e1) s v1 s1 /\ agree G' r1 s1 /\
             cs_of r1 = bind x v1 (cs_of r) /\ cells_kept s s1.
Proof.
  intros Hag Htr Hgo. destruct (simple_correct_in [] Hag Htr Hgo) as (v1 & Hv1 & H).
  rewrite app_nil_r in Hv1. eauto.
Qed.

(* ---------------------------------------------------------------- blocks *)
Lemma ewr_cons k st st2 rest :
  ends_with_return k (BCons st (BCons st2 rest)) = ends_with_return k (BCons st2 rest).
Proof. destruct k; reflexivity. Qed.

(* a list that "ends with return" never falls off its end *)
Lemma ewr_not_normal : forall n k b r s r' s',
  ends_with_return k b = true -> go_block n r s b <> ONormal r' s'.
Proof.
  induction n as [|n IH]; intros k b r s r' s' Hewr; [discriminate|].
  destruct b as [|st [|st2 rest]].
  - destruct k; discriminate.
  - destruct k as [|k]; [discriminate|]. cbn [ends_with_return last_stmt] in Hewr.
    destruct st as [y e|y t eo|y e|op y e|inc y|c th [el|]|e]; try discriminate.
    + apply andb_true_iff in Hewr as [H1 H2]. cbn [go_block].
      destruct (go_expr r s c) as [[[| | |cb| | | |]| | |]|]; try discriminate.
      destruct (go_block n r s (if cb then th else block_of (Some el))) eqn:E; try discriminate.
      exfalso. destruct cb; [exact (IH _ _ _ _ _ _ H1 E)|exact (IH _ _ _ _ _ _ H2 E)].
    + cbn [go_block]. destruct (go_expr r s e); discriminate.
  - rewrite ewr_cons in Hewr.
    destruct st as [y e|y t eo|y e|op y e|inc y|c th el|e]; cbn [go_block].
    all: try (destruct (go_simple r s _) as [[r1 s1]|]; [exact (IH _ _ _ _ _ _ Hewr)|discriminate]).
    + destruct (go_expr r s c) as [[[| | |cb| | | |]| | |]|]; try discriminate.
      destruct (go_block n r s (if cb then th else block_of el)) eqn:E; try discriminate.
      exact (IH _ _ _ _ _ _ Hewr).
    + destruct (go_expr r s e); discriminate.
Qed.

Lemma go_block_nil n r s : go_block n r s BNil = match n with O => OFuel | S _ => ONormal r s end.
Proof. destruct n; reflexivity. Qed.

Definition is_simple (st : gstmt) : bool := match st with SIf _ _ _ | SReturn _ => false | _ => true end.

Lemma tr_block_simple f G u st rest : is_simple st = true ->
  tr_block (S f) G u (BCons st rest) =
  match tr_simple G st with
  | Some (x, e, G') =>
      match rest with
      | BNil => Some (match u with Returned => LetIn x e UnitE | Local => e end)
      | _ => match tr_block f G' u rest with Some r' => Some (LetIn x e r') | None => None end
      end
  | None => None
  end.
Proof.
  destruct st; try discriminate; intros _; destruct rest; cbn [tr_block];
    destruct (tr_simple G _) as [[[xb eb] Gb]|]; try reflexivity; destruct u; reflexivity.
Qed.

Lemma go_block_simple n r s st rest : is_simple st = true ->
  go_block (S n) r s (BCons st rest) =
  match go_simple r s st with Some (r1, s1) => go_block n r1 s1 rest | None => OError end.
Proof. destruct st; try discriminate; reflexivity. Qed.

Definition post (u : usage) (e : expr) (r : genv) (s : state) (o : outcome) : Prop :=
  match o with
  | OReturn v s' => u = Returned /\ evals (close (cs_of r) e) s v s'
  | ONormal _ s' => (exists w, evals (close (cs_of r) e) s w s' /\ (u = Returned -> w = LitV LitUnit)) /\ cells_kept s s'
  | OError | OFuel => True
  end.

(* post with the term closed by any substitution: post u e r is post_cs (cs_of r) u e *)
Definition post_cs (cs : csub) (u : usage) (e : expr) (s : state) (o : outcome) : Prop :=
  match o with
  | OReturn v s' => u = Returned /\ evals (close cs e) s v s'
  | ONormal _ s' => (exists w, evals (close cs e) s w s' /\ (u = Returned -> w = LitV LitUnit)) /\ cells_kept s s'
  | OError | OFuel => True
  end.

(* e, started in s, first takes steps that lead to e2 in s1 *)
Lemma post_cs_steps cs cs1 u e e2 s s1 o :
  cells_kept s s1 -> (forall w s', evals (close cs1 e2) s1 w s' -> evals (close cs e) s w s') ->
  post_cs cs1 u e2 s1 o -> post_cs cs u e s o.
Proof.
  intros Hk Hev Hp. destruct o as [r' s'|v s'| |]; cbn [post_cs] in *; auto.
  - destruct Hp as [(w & Hw & Hu) Hk']. split; [eauto|eapply cells_kept_trans; eauto].
  - destruct Hp as [Hu Hw]. auto.
Qed.

Lemma post_cs_letin cs u x e1 e2 s v1 s1 o :
  evals (close cs e1) s v1 s1 -> cells_kept s s1 ->
  post_cs (bind x v1 cs) u e2 s1 o -> post_cs cs u (LetIn x e1 e2) s o.
Proof. intros H1 Hk. apply post_cs_steps; [exact Hk|]. intros w s'. apply evals_close_letin, H1. Qed.

Lemma post_cs_if cs u c' (cb : bool) t' e' s o :
  evals (close cs c') s (LitV (LitBool cb)) s ->
  post_cs cs u (if cb then t' else e') s o -> post_cs cs u (If c' t' e') s o.
Proof.
  intros Hc. apply post_cs_steps; [apply cells_kept_refl|].
  intros w s' Hw. rewrite close_if. eapply evals_if; [exact Hc|]. destruct cb; exact Hw.
Qed.

Theorem block_correct_in E : forall n tf G u b e r s,
  tr_block tf G u b = Some e -> agree G r s -> post_cs (cs_of r ++ E) u e s (go_block n r s b).
Proof.
  induction n as [|n IH]; intros tf G u b e r s Htr Hag; [exact I|].
  destruct tf as [|tf]; [discriminate|].
  destruct b as [|st rest].
  - (* empty list *)
    cbn in Htr. injection Htr as <-. cbn [go_block post_cs]. split; [|apply cells_kept_refl].
    exists (LitV LitUnit). split; [|reflexivity]. apply evals_close_val.
  - destruct (is_simple st) eqn:Esimple.
    + (* x := e, var, x = e, x op= e, x++ *)
      rewrite tr_block_simple in Htr by exact Esimple. rewrite go_block_simple by exact Esimple.
      destruct (tr_simple G st) as [[[x e1] G']|] eqn:Es; [|discriminate].
      destruct (go_simple r s st) as [[r1 s1]|] eqn:Eg; [|exact I].
      destruct (simple_correct_in E Hag Es Eg) as (v1 & Hv1 & Hag1 & Hcs & Hk).
      assert (Hcs1 : cs_of r1 ++ E = bind x v1 (cs_of r ++ E)) by (rewrite Hcs; destruct x; reflexivity).
      destruct rest as [|st2 rest2].
      * (* the last statement *)
        rewrite go_block_nil. destruct n; [exact I|]. injection Htr as <-. cbn [post_cs]. split; [|exact Hk].
        destruct u; [|exists v1; split; [exact Hv1|discriminate]].
        exists (LitV LitUnit). split; [|reflexivity].
        eapply evals_close_letin; [exact Hv1|]. apply evals_close_val.
      * destruct (tr_block tf G' u (BCons st2 rest2)) as [r'|] eqn:Er; [|discriminate]. injection Htr as <-.
        eapply post_cs_letin; [exact Hv1|exact Hk|]. rewrite <- Hcs1. eapply IH; eauto.
    + destruct st as [y e0|y t eo|y e0|op y e0|inc y|c th el|e0]; try discriminate Esimple.
      * (* if *)
        cbn [tr_block] in Htr. destruct (tr_expr G c) as [c'|] eqn:Ec; [|discriminate].
        cbn [go_block]. destruct (go_expr r s c) as [[[| | |cb| | | |]| | |]|] eqn:Gc; try exact I.
        pose proof (tr_expr_correct_in E _ _ _ Hag _ _ _ Ec Gc) as Hc.
        destruct (is_nil rest) eqn:Enil.
        -- (* nothing follows: the usage goes to both branches *)
           destruct rest; [|discriminate].
           destruct (tr_block tf G u th) as [t'|] eqn:Et; [|discriminate].
           destruct (tr_block tf G u (block_of el)) as [e'|] eqn:Ee; [|discriminate]. injection Htr as <-.
           assert (Hb : post_cs (cs_of r ++ E) u (If c' t' e') s (go_block n r s (if cb then th else block_of el)))
             by (apply (post_cs_if _ u c' cb); [exact Hc|]; destruct cb; eapply IH; eauto).
           destruct (go_block n r s (if cb then th else block_of el)) as [r2 s2|v s2| |] eqn:Eo; try exact Hb.
           rewrite go_block_nil. destruct n; [exact I|exact Hb].
        -- destruct (ends_with_return (bsize th) th) eqn:Eewr.
           ++ (* early return: the rest is the else branch *)
              destruct (is_nil (block_of el)) eqn:Eel; [|discriminate].
              destruct (tr_block tf G u th) as [t'|] eqn:Et; [|discriminate].
              destruct (tr_block tf G u rest) as [r'|] eqn:Er; [|discriminate]. injection Htr as <-.
              apply (post_cs_if _ u c' cb); [exact Hc|]. destruct cb.
              ** pose proof (IH _ _ _ _ _ _ _ Et Hag) as Hb.
                 destruct (go_block n r s th) as [r2 s2|v s2| |] eqn:Eo; try exact Hb.
                 exfalso. eapply ewr_not_normal; eauto.
              ** destruct (block_of el); [|discriminate]. rewrite go_block_nil. destruct n; [exact I|].
                 eapply IH; eauto.
           ++ (* a conditional in the middle of the list *)
              destruct (tr_block tf G Local th) as [t'|] eqn:Et; [|discriminate].
              destruct (tr_block tf G Local (block_of el)) as [e'|] eqn:Ee; [|discriminate].
              destruct (tr_block tf G u rest) as [r'|] eqn:Er; [|discriminate]. injection Htr as <-.
              assert (Hb : post_cs (cs_of r ++ E) Local (If c' t' e') s (go_block n r s (if cb then th else block_of el)))
                by (apply (post_cs_if _ Local c' cb); [exact Hc|]; destruct cb; eapply IH; eauto).
              destruct (go_block n r s (if cb then th else block_of el)) as [r2 s2|v s2| |] eqn:Eo; try exact I.
              ** destruct Hb as [(w & Hw & _) Hk]. unfold Seq.
                 eapply post_cs_letin; [exact Hw|exact Hk|]. eapply IH; [exact Er|]. eapply agree_kept; eauto.
              ** destruct Hb as [Hu _]. discriminate.
      * (* return *)
        destruct rest; cbn [tr_block] in Htr; [|discriminate]. destruct u; [|discriminate].
        cbn [go_block]. destruct (go_expr r s e0) as [v|] eqn:Ge; [|exact I].
        cbn [post_cs]. split; [reflexivity|]. eapply tr_expr_correct_in; eauto.
Qed.

Theorem block_correct : forall n tf G u b e r s,
  tr_block tf G u b = Some e -> agree G r s -> post u e r s (go_block n r s b).
Proof.
  intros n tf G u b e r s Htr Hag. pose proof (block_correct_in [] n tf G u b e r s Htr Hag) as H.
  rewrite app_nil_r in H. exact H.
Qed.

(* ---------------------------------------------------------------- function bodies *)
(* the body of a translated function, with the parameters replaced by the
   argument values, evaluates to the result Go computes, in the same store *)
Theorem body_correct n tf fn e args v s' :
  tr_block tf (params_env (f_params fn)) Returned (f_body fn) = Some e ->
  length args = length (f_params fn) ->
  go_call n fn args = OReturn v s' ->
  evals (close (cs_of (rev (combine (map fst (f_params fn)) (map Imm args)))) e) state0 v s'.
Proof.
  intros Htr Hlen Hgo. unfold go_call in Hgo.
  pose proof (block_correct n tf _ Returned _ e _ state0 Htr (agree_params _ _ state0 Hlen)) as Hp.
  rewrite Hgo in Hp. cbn [post] in Hp. apply Hp.
Qed.

(* a function without a result falls off the end of its body: the emitted body evaluates to #() *)
Theorem body_correct_unit n tf fn e args r' s' :
  tr_block tf (params_env (f_params fn)) Returned (f_body fn) = Some e ->
  length args = length (f_params fn) ->
  go_call n fn args = ONormal r' s' ->
  evals (close (cs_of (rev (combine (map fst (f_params fn)) (map Imm args)))) e) state0 (LitV LitUnit) s'.
Proof.
  intros Htr Hlen Hgo. unfold go_call in Hgo.
  pose proof (block_correct n tf _ Returned _ e _ state0 Htr (agree_params _ _ state0 Hlen)) as Hp.
  rewrite Hgo in Hp. cbn [post] in Hp. destruct Hp as [(w & Hw & Hu) _]. rewrite <- (Hu eq_refl). exact Hw.
Qed.

(* the emitted definition applied to the arguments evaluates to Go's result:
   the body is closed by the parameters and, last, by the function's own name *)
Theorem func_correct n fn f args v s' :
  tr_func fn = Some f ->
  NoDup (f_name fn :: map fst (f_params fn)) -> f_params fn <> [] ->
  length args = length (f_params fn) ->
  go_call n fn args = OReturn v s' ->
  evals (fold_left App (map Val args) (Val f)) state0 v s'.
Proof.
  intros Htr Hnd Hne Hlen Hgo. unfold tr_func in Htr.
  destruct (tr_block (bsize (f_body fn)) (params_env (f_params fn)) Returned (f_body fn)) as [body|] eqn:Eb; [|discriminate].
  pose proof (call_header _ _ body f args state0 v s' Htr Hnd) as Hcall.
  destruct args as [|a args]; [destruct (f_params fn); [congruence|discriminate]|].
  apply Hcall; [rewrite map_length; exact Hlen|].
  pose proof (block_correct_in [(f_name fn, f)] n _ _ Returned _ body _ state0 Eb (agree_params _ (a :: args) state0 Hlen)) as Hp.
  unfold go_call in Hgo. rewrite Hgo, cs_of_rev_combine in Hp. apply Hp.
Qed.

(* what the model rejects (goose reports a conversion error) *)
Lemma rejects_assign_to_letbound G x t e rest tf u :
  tlookup x G = Some (false, t) -> tr_block tf G u (BCons (SAssign x e) rest) = None.
Proof.
  intros H. destruct tf; [reflexivity|]. destruct rest; cbn [tr_block tr_simple]; rewrite H; reflexivity.
Qed.

Lemma rejects_return_before_end G e st rest tf u : tr_block tf G u (BCons (SReturn e) (BCons st rest)) = None.
Proof. destruct tf; reflexivity. Qed.

Lemma rejects_return_outside_tail G e tf : tr_block tf G Local (BCons (SReturn e) BNil) = None.
Proof. destruct tf; reflexivity. Qed.

Lemma rejects_unsupported_opassign G x e rest tf u op :
  assign_op op = false -> tr_block tf G u (BCons (SOpAssign op x e) rest) = None.
Proof.
  intros H. destruct tf; [reflexivity|].
  destruct rest; cbn [tr_block tr_simple]; destruct (tlookup x G) as [[[] ?]|]; try reflexivity;
    destruct (tr_expr G e); try reflexivity; rewrite H; reflexivity.
Qed.

Lemma rejects_early_return_with_else G c th el st rest tf u :
  tr_expr G c <> None -> ends_with_return (bsize th) th = true -> is_nil el = false ->
  tr_block tf G u (BCons (SIf c th (Some el)) (BCons st rest)) = None.
Proof.
  intros Hc Hewr Hel. destruct tf; [reflexivity|]. cbn [tr_block is_nil block_of].
  destruct (tr_expr G c); [|congruence]. rewrite Hewr, Hel. reflexivity.
Qed.

(* non-vacuity: a function with a shadowing block, an early return and updates,
   accepted by the model and returning in Go *)
Definition example_fn : gfunc :=
  {| f_name := "F"; f_params := [("a", TU64); ("b", TBool)];
     f_body := BCons (SVar "x" TU64 (Some (EVar "a")))
              (BCons (SIf (EVar "b") (BCons (SDefine "a" (ELit 7)) (BCons (SOpAssign OAdd "x" (EVar "a")) BNil)) None)
              (BCons (SIf (EBin OLt (EVar "x") (ELit 10)) (BCons (SReturn (EBin OMul (EVar "x") (ELit 3))) BNil) None)
              (BCons (SIncDec true "x")
              (BCons (SReturn (EBin OAdd (EVar "x") (EVar "a"))) BNil)))) |}.

Example example_fn_accepted_and_returns :
  (exists e, tr_block 20 (params_env (f_params example_fn)) Returned (f_body example_fn) = Some e) /\
  (exists s', go_call 20 example_fn [LitV (LitInt 1); LitV (LitBool true)] = OReturn (LitV (LitInt 24)) s') /\
  (exists s', go_call 20 example_fn [LitV (LitInt 40); LitV (LitBool false)] = OReturn (LitV (LitInt 81)) s').
Proof. repeat split; eexists; vm_compute; reflexivity. Qed.
