(* Calls and mutable variables: the translation of MiniGoS preserves meaning.
   For every package the translator model accepts, every function of it, every
   argument vector and every run of Go that returns, the emitted value applied
   to the arguments evaluates to the value Go returns, in the store Go ends in
   (the model of Go works on the very heap of the reference semantics). *)
From Coq Require Import String List ZArith Bool Lia.
From GV Require Import Lang.GlSyntax Lang.GlSem Lang.GlSemProofs Tr.MiniGo Tr.MiniGoProofs Tr.MiniGoC Tr.MiniGoCProofs Tr.MiniGoS.
Import ListNotations.
Local Open Scope nat_scope.
Local Open Scope list_scope.

(* ---------------------------------------------------------------- applications with effects in the arguments *)
(* the arguments of a curried application are evaluated last argument first *)
Inductive evals_rl : list expr -> state -> list val -> state -> Prop :=
| erl_nil s : evals_rl [] s [] s
| erl_cons a es s vs s1 v s2 : evals_rl es s vs s1 -> evals a s1 v s2 -> evals_rl (a :: es) s (v :: vs) s2.

Lemma evals_apps_rl : forall es vs H s s1 w s2,
  evals_rl es s vs s1 -> evals (fold_left App (map Val vs) H) s1 w s2 -> evals (fold_left App es H) s w s2.
Proof.
  induction es as [|a es IH]; intros vs H s s1 w s2 Hrl Hev; inversion Hrl as [|? ? ? vs' s1' v ? Hrest Ha]; subst; cbn [map fold_left] in *; [exact Hev|].
  eapply IH; [exact Hrest|]. revert Hev. apply sim2_apps. intros w0 s0'. apply (fill_compose (FAppR H)), Ha.
Qed.

Lemma cells_kept_read s s' b v : cells_kept s s' -> read_cell b s = Some v -> exists v', read_cell b s' = Some v'.
Proof. intros H Hr. exact (H _ _ Hr). Qed.

(* ---------------------------------------------------------------- tables *)
Lemma find_sfunc_In f P fn : find_sfunc f P = Some fn -> In fn P /\ sf_name fn = f.
Proof.
  induction P as [|g P IH]; cbn [find_sfunc In]; [discriminate|].
  destruct (String.eqb f (sf_name g)) eqn:E; [|intros H; destruct (IH H); auto].
  intros [= <-]. apply String.eqb_eq in E. auto.
Qed.

Lemma find_sfunc_app P0 fn P1 : ~ In (sf_name fn) (map sf_name P0) -> find_sfunc (sf_name fn) (P0 ++ fn :: P1) = Some fn.
Proof.
  induction P0 as [|g P0 IH]; cbn [app find_sfunc map In]; intros Hn.
  - rewrite String.eqb_refl. reflexivity.
  - destruct (String.eqb (sf_name fn) (sf_name g)) eqn:E.
    + apply String.eqb_eq in E. exfalso. apply Hn. left. auto.
    + apply IH. tauto.
Qed.

Inductive sgood (P : sprog) : ftable -> Prop :=
| sgood_nil : sgood P []
| sgood_cons T fn v : sgood P T -> find_sfunc (sf_name fn) P = Some fn -> trs_func T fn = Some v ->
    sgood P ((sf_name fn, v) :: T).

Definition sinside (P : sprog) (T : ftable) (fn : sfunc) (F : val) : Prop :=
  sgood P T /\ find_sfunc (sf_name fn) P = Some fn /\ trs_func T fn = Some F.

Lemma sgood_lookup P T g v : sgood P T -> flookup g T = Some v ->
  exists Tg fn, sinside P Tg fn v /\ sf_name fn = g.
Proof.
  induction 1 as [|T fn w Hg IH Hf Ht]; cbn [flookup]; [discriminate|].
  destruct (String.eqb g (sf_name fn)) eqn:E.
  - apply String.eqb_eq in E. subst g. intros [= <-]. exists T, fn. repeat split; auto.
  - exact IH.
Qed.

(* ---------------------------------------------------------------- bodies that begin with a simple statement *)
(* sbody repeats the statements of sstmt; trs_body and sgo_body treat them as
   trs_simple and sgo_simple do, followed by the rest of the body *)
Definition shead (b : sbody) : option (sstmt * sbody) :=
  match b with
  | SLet x e k => Some (TLet x e, k)
  | SVarD x t eo k => Some (TVarD x t eo, k)
  | SAsg x e k => Some (TAsg x e, k)
  | SOpAsg op x e k => Some (TOpAsg op x e, k)
  | SIncD inc x k => Some (TIncD inc x, k)
  | SIfL _ _ _ _ | SRet _ | SIfT _ _ _ => None
  end.

Lemma trs_body_head {T self G b st k} : shead b = Some (st, k) ->
  trs_body T self G b =
  match trs_simple T self G st with
  | Some (x, e, G') => match trs_body T self G' k with Some k' => Some (LetIn x e k') | None => None end
  | None => None
  end.
Proof.
  destruct b as [c th el k0|e|x e k0|x t eo k0|x e k0|op x e k0|inc x k0|c th el]; try discriminate;
    intros [= <- <-]; cbn [trs_body trs_simple].
  - destruct (trs_expr T self G e); reflexivity.
  - destruct eo as [e|]; [destruct (trs_expr T self G e)|]; reflexivity.
  - destruct (tlookup x G) as [[[] t]|]; try reflexivity. destruct (trs_expr T self G e); reflexivity.
  - destruct (tlookup x G) as [[[] t]|]; try reflexivity. destruct (trs_expr T self G e); [|reflexivity].
    destruct (assign_op op); [destruct (tr_binop op _ _)|]; destruct (trs_body T self G k0); reflexivity.
  - destruct (tlookup x G) as [[[] t]|]; reflexivity.
Qed.

Lemma sgo_body_head {n P r s b st k} : shead b = Some (st, k) ->
  sgo_body (S n) P r s b =
  match sgo_simple (sgo_expr n P) r s st with Some (r1, s1) => sgo_body n P r1 s1 k | None => None end.
Proof.
  destruct b as [c th el k0|e|x e k0|x t eo k0|x e k0|op x e k0|inc x k0|c th el]; try discriminate;
    intros [= <- <-]; cbn [sgo_body sgo_simple].
  - destruct (sgo_expr n P r s e) as [[v s1]|]; reflexivity.
  - destruct (match eo with Some e => sgo_expr n P r s e | None => Some (zero_of t, s) end) as [[v s1]|]; [|reflexivity].
    destruct (alloc_cell v s1); reflexivity.
  - destruct (glookup x r) as [[|bb]|]; try reflexivity. destruct (sgo_expr n P r s e) as [[v s1]|]; [|reflexivity].
    destruct (write_cell bb v s1); reflexivity.
  - destruct (glookup x r) as [[|bb]|]; try reflexivity. destruct (sgo_expr n P r s e) as [[v s1]|]; [|reflexivity].
    destruct (read_cell bb s1); [|reflexivity]. destruct (go_binop op _ v); [|reflexivity]. destruct (write_cell bb _ s1); reflexivity.
  - destruct (glookup x r) as [[|bb]|]; try reflexivity. destruct (read_cell bb s); [|reflexivity].
    destruct (go_binop _ _ _); [|reflexivity]. destruct (write_cell bb _ s); reflexivity.
Qed.

Lemma sgo_expr_strict {n P r s op a b} : strict op = true ->
  sgo_expr (S n) P r s (CBin op a b) =
  if swapped op then
    match sgo_expr n P r s a with
    | Some (va, s1) =>
        match sgo_expr n P r s1 b with
        | Some (vb, s2) => match go_binop op va vb with Some v => Some (v, s2) | None => None end
        | None => None
        end
    | None => None
    end
  else
    match sgo_expr n P r s b with
    | Some (vb, s1) =>
        match sgo_expr n P r s1 a with
        | Some (va, s2) => match go_binop op va vb with Some v => Some (v, s2) | None => None end
        | None => None
        end
    | None => None
    end.
Proof. destruct op; try discriminate; reflexivity. Qed.

(* ---------------------------------------------------------------- the theorem *)
Section Main.
Variable P : sprog.

Definition csf (r : genv) (self : string) (F : val) : csub := cs_of r ++ [(self, F)].

Definition QE (n : nat) : Prop := forall T fn F G r s e e' v s', sinside P T fn F -> agree G r s ->
  trs_expr T (sf_name fn) G e = Some e' -> sgo_expr n P r s e = Some (v, s') ->
  evals (close (csf r (sf_name fn) F) e') s v s' /\ cells_kept s s'.

Definition QA (n : nat) : Prop := forall T fn F G r s args acc e' vs s', sinside P T fn F -> agree G r s ->
  trs_args T (sf_name fn) G args acc = Some e' -> sgo_args n P r s args = Some (vs, s') ->
  exists es, e' = fold_left App es acc /\
    evals_rl (map (close (csf r (sf_name fn) F)) es) s vs s' /\ cells_kept s s'.

Definition QB (n : nat) : Prop := forall T fn F G r s b b' v s', sinside P T fn F -> agree G r s ->
  trs_body T (sf_name fn) G b = Some b' -> sgo_body n P r s b = Some (v, s') ->
  evals (close (csf r (sf_name fn) F) b') s v s' /\ cells_kept s s'.

Definition QL (n : nat) : Prop := forall T fn F G r s l l' s', sinside P T fn F -> agree G r s ->
  trs_loc T (sf_name fn) G l = Some l' -> sgo_loc n P r s l = Some s' ->
  (exists w, evals (close (csf r (sf_name fn) F) l') s w s') /\ cells_kept s s'.

Lemma ssimple_correct n T fn F G r s st x e1 G' r1 s1 : QE n -> sinside P T fn F -> agree G r s ->
  trs_simple T (sf_name fn) G st = Some (x, e1, G') -> sgo_simple (sgo_expr n P) r s st = Some (r1, s1) ->
  exists v1, evals (close (csf r (sf_name fn) F) e1) s v1 s1 /\ agree G' r1 s1 /\
             csf r1 (sf_name fn) F = bind x v1 (csf r (sf_name fn) F) /\ cells_kept s s1.
Proof.
  intros IHE Hin Hag Htr Hgo. set (cs := csf r (sf_name fn) F).
  destruct st as [y e|y t [e|]|y e|op y e|inc y]; cbn [trs_simple sgo_simple] in Htr, Hgo.
  - (* y := e *)
    destruct (trs_expr T (sf_name fn) G e) as [e'|] eqn:Ee; [|discriminate]. injection Htr as <- <- <-.
    destruct (sgo_expr n P r s e) as [[v s0]|] eqn:Ge; [|discriminate]. injection Hgo as <- <-.
    destruct (IHE _ _ _ _ _ _ _ _ _ _ Hin Hag Ee Ge) as [He K1].
    exists v. repeat split; [exact He|constructor; eapply agree_kept; eassumption|exact K1].
  - (* var y t = e *)
    destruct (trs_expr T (sf_name fn) G e) as [e'|] eqn:Ee; [|discriminate]. injection Htr as <- <- <-.
    destruct (sgo_expr n P r s e) as [[v s0]|] eqn:Ge; [|discriminate].
    destruct (alloc_cell v s0) as [b s2] eqn:Ea. injection Hgo as <- <-.
    destruct (IHE _ _ _ _ _ _ _ _ _ _ Hin Hag Ee Ge) as [He K1].
    destruct (agree_alloc y t Hag K1 Ea) as [Hag' K2].
    exists (LitV (LitLoc b 0)). repeat split; [eapply evals_ref_to; eassumption|exact Hag'|exact K2].
  - (* var y t *)
    injection Htr as <- <- <-.
    destruct (alloc_cell (zero_of t) s) as [b s2] eqn:Ea. injection Hgo as <- <-.
    destruct (agree_alloc y t Hag (cells_kept_refl s) Ea) as [Hag' K2].
    exists (LitV (LitLoc b 0)). repeat split; [apply evals_ref_zero, Ea|exact Hag'|exact K2].
  - (* y = e *)
    destruct (tlookup y G) as [[[] t]|] eqn:Hl; try discriminate.
    destruct (trs_expr T (sf_name fn) G e) as [e'|] eqn:Ee; [|discriminate]. injection Htr as <- <- <-.
    destruct (agree_cell [(sf_name fn, F)] Hag Hl) as (b & Hg & Hloc). rewrite Hg in Hgo.
    destruct (sgo_expr n P r s e) as [[v s0]|] eqn:Ge; [|discriminate].
    destruct (write_cell b v s0) as [s2|] eqn:Hw; [|discriminate]. injection Hgo as <- <-.
    destruct (IHE _ _ _ _ _ _ _ _ _ _ Hin Hag Ee Ge) as [He K1].
    pose proof (cells_kept_trans K1 (write_kept Hw)) as K2.
    exists (LitV LitUnit). repeat split; [|eapply agree_kept; eassumption|exact K2].
    eapply evals_store; [exact Hloc|exact He|exact Hw].
  - (* y op= e *)
    destruct (tlookup y G) as [[[] t]|] eqn:Hl; try discriminate.
    destruct (trs_expr T (sf_name fn) G e) as [e'|] eqn:Ee; [|discriminate].
    destruct (assign_op op) eqn:Eop; [|discriminate].
    destruct (tr_binop op (Load (ty_of t) (Var y)) e') as [rhs|] eqn:Eb; [|discriminate]. injection Htr as <- <- <-.
    destruct (agree_cell [(sf_name fn, F)] Hag Hl) as (b & Hg & Hloc). rewrite Hg in Hgo.
    destruct (sgo_expr n P r s e) as [[v s0]|] eqn:Ge; [|discriminate].
    destruct (read_cell b s0) as [old|] eqn:Hr1; [|discriminate].
    destruct (go_binop op old v) as [nv|] eqn:Ebin; [|discriminate].
    destruct (write_cell b nv s0) as [s2|] eqn:Hw; [|discriminate]. injection Hgo as <- <-.
    destruct (IHE _ _ _ _ _ _ _ _ _ _ Hin Hag Ee Ge) as [He K1].
    pose proof (cells_kept_trans K1 (write_kept Hw)) as K2.
    exists (LitV LitUnit). repeat split; [|eapply agree_kept; eassumption|exact K2].
    eapply evals_update; eassumption.
  - (* y++ / y-- *)
    destruct (tlookup y G) as [[[] t]|] eqn:Hl; try discriminate. injection Htr as <- <- <-.
    destruct (agree_cell [(sf_name fn, F)] Hag Hl) as (b & Hg & Hloc). rewrite Hg in Hgo.
    destruct (read_cell b s) as [old|] eqn:Hr; [|discriminate].
    destruct (go_binop (if inc then OAdd else OSub) old (LitV (LitInt 1))) as [nv|] eqn:Ebin; [|discriminate].
    destruct (write_cell b nv s) as [s2|] eqn:Hw; [|discriminate]. injection Hgo as <- <-.
    pose proof (write_kept Hw) as K2.
    exists (LitV LitUnit). repeat split; [|eapply agree_kept; eassumption|exact K2].
    eapply evals_incdec; eassumption.
Qed.

Lemma sgo_loc_end n r s s' : sgo_loc n P r s LEnd = Some s' -> s' = s.
Proof. destruct n; cbn [sgo_loc]; [discriminate|]. intros [= <-]. reflexivity. Qed.

Lemma lend_true k : lend k = true -> k = LEnd.
Proof. destruct k; cbn [lend]; try discriminate. reflexivity. Qed.

Lemma scallee_value T fn F r f fg fe : sinside P T fn F -> glookup f r = None -> find_sfunc f P = Some fg ->
  (if String.eqb f (sf_name fn) then Some (Var f) else option_map Val (flookup f T)) = Some fe ->
  exists Tg Fg, sinside P Tg fg Fg /\ close (csf r (sf_name fn) F) fe = Val Fg.
Proof.
  intros Hin El Ef Hfe. destruct (String.eqb f (sf_name fn)) eqn:Eself.
  - apply String.eqb_eq in Eself. subst f. injection Hfe as <-. exists T, F.
    destruct Hin as (Hg & Hf & Ht). rewrite Hf in Ef. injection Ef as <-.
    split; [repeat split; assumption|]. unfold csf. rewrite close_var, (clookup_cs_self _ _ _ El). reflexivity.
  - destruct (flookup f T) as [vg|] eqn:Efl; [|discriminate]. injection Hfe as <-.
    destruct Hin as (Hg & _ & _). destruct (sgood_lookup _ _ _ _ Hg Efl) as (Tg & fn' & Hin' & Hname).
    pose proof Hin' as (_ & Hf' & _). rewrite Hname, Ef in Hf'. injection Hf' as <-.
    exists Tg, vg. split; [exact Hin'|apply close_val].
Qed.

Lemma senter_correct n T fn F args v s s' : QB n -> sinside P T fn F ->
  length args = length (sf_params fn) ->
  sgo_body n P (rev (combine (map fst (sf_params fn)) (map Imm args))) s (sf_body fn) = Some (v, s') ->
  evals (call_expr F args) s v s' /\ cells_kept s s'.
Proof.
  intros HB Hin Hlen Hgo. pose proof Hin as (Hg & Hf & Ht). unfold trs_func in Ht.
  destruct (nodupb (map fst (sf_params fn)) && negb (smem (sf_name fn) (map fst (sf_params fn)))) eqn:Ec; [|discriminate].
  destruct (trs_body T (sf_name fn) (params_env (sf_params fn)) (sf_body fn)) as [body|] eqn:Eb; [|discriminate].
  destruct (HB T fn F _ _ s _ _ v s' Hin (agree_params (sf_params fn) args s Hlen) Eb Hgo) as [Hev Hk].
  split; [|exact Hk]. unfold csf in Hev. rewrite cs_of_rev_combine in Hev.
  apply (call_header _ _ body F args s v s' Ht (params_NoDup _ _ Ec)); [rewrite map_length; exact Hlen|exact Hev].
Qed.

(* a conditional without control effects, whichever list it stands in *)
Lemma sif_correct n T fn F G r s c th el c' t' e' cb s1 s2 : QE n -> QL n -> sinside P T fn F -> agree G r s ->
  trs_expr T (sf_name fn) G c = Some c' -> trs_loc T (sf_name fn) G th = Some t' -> trs_loc T (sf_name fn) G el = Some e' ->
  sgo_expr n P r s c = Some (LitV (LitBool cb), s1) -> sgo_loc n P r s1 (if cb then th else el) = Some s2 ->
  (exists w, evals (close (csf r (sf_name fn) F) (If c' t' e')) s w s2) /\ cells_kept s s2.
Proof.
  intros IHE IHL Hin Hag Ec Et Ee Gc Gb.
  destruct (IHE _ _ _ _ _ _ _ _ _ _ Hin Hag Ec Gc) as [Hc K1].
  pose proof (agree_kept Hag K1) as Hag1.
  assert (Hb : (exists w, evals (close (csf r (sf_name fn) F) (if cb then t' else e')) s1 w s2) /\ cells_kept s1 s2)
    by (destruct cb; eapply IHL; eassumption).
  destruct Hb as [[w Hw] K2]. split; [|eapply cells_kept_trans; eassumption].
  exists w. rewrite close_if. eapply evals_if; [exact Hc|]. destruct cb; exact Hw.
Qed.

Theorem sall_correct : forall n, QE n /\ QA n /\ QL n /\ QB n.
Proof.
  induction n as [|n (IHE & IHA & IHL & IHB)].
  { unfold QE, QA, QL, QB. split; [|split; [|split]]; intros;
      match goal with H0 : _ O _ _ _ _ = Some _ |- _ => cbn in H0; discriminate H0 end. }
  split; [|split; [|split]].
  - (* expressions *)
    intros T fn F G r s e e' v s' Hin Hag Htr Hgo. set (cs := csf r (sf_name fn) F).
    destruct e as [k|b|x|op a b|a|f args].
    + cbn in Htr, Hgo. injection Htr as <-. injection Hgo as <- <-. split; [|apply cells_kept_refl].
      apply evals_close_val.
    + cbn in Htr, Hgo. injection Htr as <-. injection Hgo as <- <-. split; [|apply cells_kept_refl].
      apply evals_close_val.
    + cbn [trs_expr] in Htr. cbn [sgo_expr] in Hgo.
      destruct (tlookup x G) as [[[] t]|] eqn:Hl; [| |discriminate]; injection Htr as <-.
      * destruct (agree_lookup Hag Hl) as (b & w & Hg & Hr).
        rewrite Hg, Hr in Hgo. injection Hgo as <- <-. split; [|apply cells_kept_refl].
        eapply evals_load; [|exact Hr]. unfold cs, csf. rewrite (clookup_cs_app Hg). reflexivity.
      * destruct (agree_lookup Hag Hl) as (w & Hg).
        rewrite Hg in Hgo. injection Hgo as <- <-. split; [|apply cells_kept_refl].
        unfold cs, csf. rewrite close_var, (clookup_cs_app Hg). apply evals_val.
    + cbn [trs_expr] in Htr.
      destruct (trs_expr T (sf_name fn) G a) as [a'|] eqn:Ea; [|discriminate].
      destruct (trs_expr T (sf_name fn) G b) as [b'|] eqn:Eb; [|discriminate].
      apply (close_tr_binop cs) in Htr.
      destruct (strict op) eqn:Hst; [|destruct op; try discriminate Hst].
      * rewrite (sgo_expr_strict Hst) in Hgo. destruct (swapped op) eqn:Esw.
        -- (* > and >=: left operand first *)
           destruct (sgo_expr n P r s a) as [[va s1]|] eqn:Ga; [|discriminate].
           destruct (sgo_expr n P r s1 b) as [[vb s2]|] eqn:Gb; [|discriminate].
           destruct (go_binop op va vb) as [v0|] eqn:Ebin; [|discriminate]. injection Hgo as <- <-.
           destruct (IHE _ _ _ _ _ _ _ _ _ _ Hin Hag Ea Ga) as [Ha Ka].
           destruct (IHE _ _ _ _ _ _ _ _ _ _ Hin (agree_kept Hag Ka) Eb Gb) as [Hb Kb].
           split; [|eapply cells_kept_trans; eassumption].
           eapply tr_binop_evals; [exact Ebin|exact Htr|]. destruct op; try discriminate Esw; (split; [exact Ha|exact Hb]).
        -- (* right operand first *)
           destruct (sgo_expr n P r s b) as [[vb s1]|] eqn:Gb; [|discriminate].
           destruct (sgo_expr n P r s1 a) as [[va s2]|] eqn:Ga; [|discriminate].
           destruct (go_binop op va vb) as [v0|] eqn:Ebin; [|discriminate]. injection Hgo as <- <-.
           destruct (IHE _ _ _ _ _ _ _ _ _ _ Hin Hag Eb Gb) as [Hb Kb].
           destruct (IHE _ _ _ _ _ _ _ _ _ _ Hin (agree_kept Hag Kb) Ea Ga) as [Ha Ka].
           split; [|eapply cells_kept_trans; eassumption].
           eapply tr_binop_evals; [exact Ebin|exact Htr|]. destruct op; try discriminate Esw; (split; [exact Hb|exact Ha]).
      * (* && *)
        cbn [sgo_expr] in Hgo.
        destruct (sgo_expr n P r s a) as [[[[| | |ba| | | |]| | |] s1]|] eqn:Ga; try discriminate.
        destruct (IHE _ _ _ _ _ _ _ _ _ _ Hin Hag Ea Ga) as [Ha Ka]. destruct ba.
        -- destruct (sgo_expr n P r s1 b) as [[[[| | |x| | | |]| | |] s2]|] eqn:Gb; try discriminate. injection Hgo as <- <-.
           destruct (IHE _ _ _ _ _ _ _ _ _ _ Hin (agree_kept Hag Ka) Eb Gb) as [Hb Kb].
           split; [|eapply cells_kept_trans; eassumption]. eapply tr_binop_short; [exact Htr|exact Ha|exact Hb].
        -- injection Hgo as <- <-. split; [|exact Ka]. eapply tr_binop_short; [exact Htr|exact Ha|]. cbn. auto.
      * (* || *)
        cbn [sgo_expr] in Hgo.
        destruct (sgo_expr n P r s a) as [[[[| | |ba| | | |]| | |] s1]|] eqn:Ga; try discriminate.
        destruct (IHE _ _ _ _ _ _ _ _ _ _ Hin Hag Ea Ga) as [Ha Ka]. destruct ba.
        -- injection Hgo as <- <-. split; [|exact Ka]. eapply tr_binop_short; [exact Htr|exact Ha|]. cbn. auto.
        -- destruct (sgo_expr n P r s1 b) as [[[[| | |x| | | |]| | |] s2]|] eqn:Gb; try discriminate. injection Hgo as <- <-.
           destruct (IHE _ _ _ _ _ _ _ _ _ _ Hin (agree_kept Hag Ka) Eb Gb) as [Hb Kb].
           split; [|eapply cells_kept_trans; eassumption]. eapply tr_binop_short; [exact Htr|exact Ha|exact Hb].
    + cbn [trs_expr] in Htr. destruct (trs_expr T (sf_name fn) G a) as [a'|] eqn:Ea; [|discriminate]. injection Htr as <-.
      cbn [sgo_expr] in Hgo. destruct (sgo_expr n P r s a) as [[[[| | |x| | | |]| | |] s1]|] eqn:Ga; try discriminate. injection Hgo as <- <-.
      destruct (IHE _ _ _ _ _ _ _ _ _ _ Hin Hag Ea Ga) as [Ha Ka]. split; [|exact Ka].
      rewrite close_unop. eapply evals_unop; [exact Ha|reflexivity].
    + (* calls *)
      cbn [trs_expr] in Htr. unfold tbound in Htr. destruct (tlookup f G) eqn:Etl; [discriminate|].
      pose proof (agree_none _ _ _ _ Hag Etl) as El.
      cbn [sgo_expr] in Hgo. rewrite El in Hgo.
      destruct (find_sfunc f P) as [fg|] eqn:Ef; [|discriminate].
      destruct (sgo_args n P r s args) as [[vs s1]|] eqn:Eargs; [|discriminate].
      destruct (Nat.eqb (length vs) (length (sf_params fg))) eqn:Elen; [|discriminate].
      apply Nat.eqb_eq in Elen.
      destruct (if String.eqb f (sf_name fn) then Some (Var f) else option_map Val (flookup f T)) as [fe|] eqn:Efe; [|discriminate].
      destruct (scallee_value T fn F r f fg fe Hin El Ef Efe) as (Tg & Fg & Hing & Hcl). fold cs in Hcl.
      destruct (senter_correct n Tg fg Fg vs v s1 s' IHB Hing Elen Hgo) as [Hcall Kcall].
      destruct args as [|a rest].
      * injection Htr as <-. destruct n as [|n']; [discriminate|]. cbn [sgo_args] in Eargs. injection Eargs as <- <-.
        split; [|exact Kcall]. cbn [call_expr] in Hcall. rewrite close_app, Hcl. unfold UnitE. rewrite close_val. exact Hcall.
      * destruct (IHA _ _ _ _ _ _ _ _ _ _ _ Hin Hag Htr Eargs) as (es & -> & Hrl & Kargs).
        split; [|eapply cells_kept_trans; eassumption].
        rewrite close_apps, Hcl.
        assert (Hvs : vs <> []).
        { destruct n as [|n']; [discriminate|]. cbn [sgo_args] in Eargs.
          destruct (sgo_args n' P r s rest) as [[? sr]|]; [|discriminate]. destruct (sgo_expr n' P r sr a) as [[? ?]|]; [|discriminate].
          injection Eargs as <- <-. discriminate. }
        destruct vs as [|v1 vs]; [congruence|]. cbn [call_expr] in Hcall.
        eapply evals_apps_rl; [exact Hrl|exact Hcall].
  - (* arguments *)
    intros T fn F G r s args acc e' vs s' Hin Hag Htr Hgo. destruct args as [|a rest]; cbn [trs_args sgo_args] in Htr, Hgo.
    + injection Htr as <-. injection Hgo as <- <-. exists []. split; [reflexivity|]. split; [constructor|apply cells_kept_refl].
    + destruct (trs_expr T (sf_name fn) G a) as [a'|] eqn:Ea; [|discriminate].
      destruct (sgo_args n P r s rest) as [[vs' s1]|] eqn:Gr; [|discriminate].
      destruct (sgo_expr n P r s1 a) as [[v s2]|] eqn:Ga; [|discriminate]. injection Hgo as <- <-.
      destruct (IHA _ _ _ _ _ _ _ _ _ _ _ Hin Hag Htr Gr) as (es & -> & Hrl & K1).
      destruct (IHE _ _ _ _ _ _ _ _ _ _ Hin (agree_kept Hag K1) Ea Ga) as [Ha K2].
      exists (a' :: es). split; [reflexivity|]. split; [|eapply cells_kept_trans; eassumption].
      cbn [map]. econstructor; [exact Hrl|exact Ha].
  - (* lists of statements without control effects *)
    intros T fn F G r s l l' s' Hin Hag Htr Hgo. set (cs := csf r (sf_name fn) F).
    destruct l as [|st k|c th el k]; cbn [trs_loc sgo_loc] in Htr, Hgo.
    + injection Htr as <-. injection Hgo as <-. split; [|apply cells_kept_refl].
      exists (LitV LitUnit). apply evals_close_val.
    + destruct (trs_simple T (sf_name fn) G st) as [[[x e1] G']|] eqn:Es; [|discriminate].
      destruct (sgo_simple (sgo_expr n P) r s st) as [[r1 s1]|] eqn:Gs; [|discriminate].
      destruct (ssimple_correct n T fn F G r s st x e1 G' r1 s1 IHE Hin Hag Es Gs) as (v1 & He & Hag1 & Hcs & K1).
      destruct (lend k) eqn:Ek.
      * apply lend_true in Ek. subst k. injection Htr as <-. apply sgo_loc_end in Hgo. subst s'.
        split; [exists v1; exact He|exact K1].
      * destruct (trs_loc T (sf_name fn) G' k) as [k'|] eqn:Etk; [|discriminate]. injection Htr as <-.
        destruct (IHL _ _ _ _ _ _ _ _ _ Hin Hag1 Etk Hgo) as [[w Hk] K2].
        split; [|eapply cells_kept_trans; eassumption].
        exists w. eapply evals_close_letin; [exact He|]. unfold cs. rewrite <- Hcs. exact Hk.
    + destruct (trs_expr T (sf_name fn) G c) as [c'|] eqn:Ec; [|discriminate].
      destruct (trs_loc T (sf_name fn) G th) as [t'|] eqn:Et; [|discriminate].
      destruct (trs_loc T (sf_name fn) G el) as [e'|] eqn:Ee; [|discriminate].
      destruct (sgo_expr n P r s c) as [[[[| | |cb| | | |]| | |] s1]|] eqn:Gc; try discriminate.
      destruct (sgo_loc n P r s1 (if cb then th else el)) as [s2|] eqn:Gb; [|discriminate].
      destruct (sif_correct n T fn F G r s c th el c' t' e' cb s1 s2 IHE IHL Hin Hag Ec Et Ee Gc Gb) as [[w Hw] K2].
      destruct (lend k) eqn:Ek.
      * apply lend_true in Ek. subst k. injection Htr as <-. apply sgo_loc_end in Hgo. subst s'.
        split; [exists w; exact Hw|exact K2].
      * destruct (trs_loc T (sf_name fn) G k) as [k'|] eqn:Etk; [|discriminate]. injection Htr as <-.
        destruct (IHL _ _ _ _ _ _ _ _ _ Hin (agree_kept Hag K2) Etk Hgo) as [[w2 Hk] K3].
        split; [|eapply cells_kept_trans; eassumption].
        exists w2. unfold Seq. eapply (evals_close_letin _ BAnon _ _ s w s2); [exact Hw|exact Hk].
  - (* bodies *)
    intros T fn F G r s b b' v s' Hin Hag Htr Hgo. set (cs := csf r (sf_name fn) F).
    destruct (shead b) as [[st k]|] eqn:Eh.
    + (* a statement without control effects, then the rest *)
      rewrite (trs_body_head Eh) in Htr. rewrite (sgo_body_head Eh) in Hgo.
      destruct (trs_simple T (sf_name fn) G st) as [[[x e1] G']|] eqn:Es; [|discriminate].
      destruct (trs_body T (sf_name fn) G' k) as [k'|] eqn:Ek; [|discriminate]. injection Htr as <-.
      destruct (sgo_simple (sgo_expr n P) r s st) as [[r1 s1]|] eqn:Gs; [|discriminate].
      destruct (ssimple_correct n T fn F G r s st x e1 G' r1 s1 IHE Hin Hag Es Gs) as (v1 & He & Hag1 & Hcs & K1).
      destruct (IHB _ _ _ _ _ _ _ _ _ _ Hin Hag1 Ek Hgo) as [Hk K2].
      split; [|eapply cells_kept_trans; eassumption].
      eapply evals_close_letin; [exact He|]. unfold cs. rewrite <- Hcs. exact Hk.
    + destruct b as [c th el k|e| | | | | |c th el]; try discriminate Eh; cbn [trs_body sgo_body] in Htr, Hgo.
      * (* if without control effects, more statements follow *)
        destruct (trs_expr T (sf_name fn) G c) as [c'|] eqn:Ec; [|discriminate].
        destruct (trs_loc T (sf_name fn) G th) as [t'|] eqn:Et; [|discriminate].
        destruct (trs_loc T (sf_name fn) G el) as [e'|] eqn:Ee; [|discriminate].
        destruct (trs_body T (sf_name fn) G k) as [k'|] eqn:Ek; [|discriminate]. injection Htr as <-.
        destruct (sgo_expr n P r s c) as [[[[| | |cb| | | |]| | |] s1]|] eqn:Gc; try discriminate.
        destruct (sgo_loc n P r s1 (if cb then th else el)) as [s2|] eqn:Gb; [|discriminate].
        destruct (sif_correct n T fn F G r s c th el c' t' e' cb s1 s2 IHE IHL Hin Hag Ec Et Ee Gc Gb) as [[w Hw] K2].
        destruct (IHB _ _ _ _ _ _ _ _ _ _ Hin (agree_kept Hag K2) Ek Hgo) as [Hk K3].
        split; [|eapply cells_kept_trans; eassumption].
        unfold Seq. eapply (evals_close_letin _ BAnon _ _ s w s2); [exact Hw|exact Hk].
      * (* return *)
        apply (IHE _ _ _ _ _ _ _ _ _ _ Hin Hag Htr Hgo).
      * (* if whose branches return *)
        destruct (trs_expr T (sf_name fn) G c) as [c'|] eqn:Ec; [|discriminate].
        destruct (trs_body T (sf_name fn) G th) as [t'|] eqn:Et; [|discriminate].
        destruct (trs_body T (sf_name fn) G el) as [l'|] eqn:El; [|discriminate]. injection Htr as <-.
        destruct (sgo_expr n P r s c) as [[[[| | |cb| | | |]| | |] s1]|] eqn:Gc; try discriminate.
        destruct (IHE _ _ _ _ _ _ _ _ _ _ Hin Hag Ec Gc) as [Hc K1].
        pose proof (agree_kept Hag K1) as Hag1.
        assert (Hb : evals (close cs (if cb then t' else l')) s1 v s' /\ cells_kept s1 s')
          by (destruct cb; eapply IHB; eassumption).
        destruct Hb as [Hk K2]. split; [|eapply cells_kept_trans; eassumption].
        rewrite close_if. eapply evals_if; [exact Hc|]. destruct cb; exact Hk.
Qed.
End Main.

(* ---------------------------------------------------------------- packages *)
Lemma sprog_inside P : forall P1 P0 T R, P = (P0 ++ P1)%list -> sgood P T -> map fst T = rev (map sf_name P0) ->
  trs_prog_from T P1 = Some R -> Forall2 (fun fn F => exists Tg, sinside P Tg fn F) P1 (map snd R).
Proof.
  induction P1 as [|fn P1 IH]; intros P0 T R HP Hg Hfst Htr; cbn [trs_prog_from] in Htr.
  - injection Htr as <-. constructor.
  - destruct (negb (smem (sf_name fn) (map fst T))) eqn:Enm; [|discriminate].
    destruct (trs_func T fn) as [v|] eqn:Ef; [|discriminate].
    destruct (trs_prog_from ((sf_name fn, v) :: T) P1) as [R'|] eqn:Er; [|discriminate]. injection Htr as <-.
    assert (Hfind : find_sfunc (sf_name fn) P = Some fn).
    { rewrite HP. apply find_sfunc_app. intros Hin. apply in_rev in Hin. rewrite <- Hfst in Hin.
      apply smem_In in Hin. rewrite Hin in Enm. discriminate. }
    constructor; [exists T; repeat split; assumption|].
    apply (IH (P0 ++ [fn])%list ((sf_name fn, v) :: T)); [rewrite <- app_assoc; exact HP|constructor; assumption| |exact Er].
    cbn [map fst]. rewrite map_app, rev_app_distr. cbn [map rev app]. rewrite Hfst. reflexivity.
Qed.

(* the i-th emitted value implements the i-th function of the package: applied
   to the arguments, from any store, it evaluates to the value Go returns and
   ends in the store Go ends in *)
Theorem sprog_correct P vs :
  trs_prog P = Some vs ->
  Forall2 (fun fn F => forall n args v s s',
             length args = length (sf_params fn) ->
             sgo_body n P (rev (combine (map fst (sf_params fn)) (map Imm args))) s (sf_body fn) = Some (v, s') ->
             evals (call_expr F args) s v s') P vs.
Proof.
  unfold trs_prog. destruct (trs_prog_from [] P) as [R|] eqn:Er; [|discriminate]. cbn [option_map]. intros [= <-].
  refine (Forall2_weaken _ (sprog_inside P P [] [] R eq_refl (sgood_nil P) eq_refl Er)).
  intros fn F [Tg Hin] n args v s s' Hlen Hgo.
  exact (proj1 (senter_correct P n Tg fn F args v s s' (proj2 (proj2 (proj2 (sall_correct P n)))) Hin Hlen Hgo)).
Qed.

Theorem scall_correct P vs n f args v s' :
  trs_prog P = Some vs -> sgo_call n P f args = Some (v, s') ->
  exists i fn F, nth_error P i = Some fn /\ sf_name fn = f /\ nth_error vs i = Some F /\
    evals (call_expr F args) state0 v s'.
Proof.
  intros Htr Hgo. pose proof (sprog_correct P vs Htr) as HF. unfold sgo_call in Hgo.
  destruct (find_sfunc f P) as [fn|] eqn:Ef; [|discriminate].
  destruct (Nat.eqb (length args) (length (sf_params fn))) eqn:El; [|discriminate]. apply Nat.eqb_eq in El.
  apply find_sfunc_In in Ef as [Hin Hname]. destruct (In_nth_error _ _ Hin) as [i Hi].
  destruct (Forall2_nth HF Hi) as (F & HnF & Hc).
  exists i, fn, F. repeat split; auto. eapply Hc; eassumption.
Qed.

(* ---------------------------------------------------------------- non-vacuity *)
Open Scope string_scope.
(* func Sum(n, x uint64) uint64 { if n == 0 { return 1 }; var acc uint64 = Sum(n-1, x); acc += x; acc++; ... } *)
Definition sx_sum : sfunc := {| sf_name := "Sum"; sf_params := [("n", TU64); ("x", TU64)]; sf_body :=
  SIfT (CBin OEq (CVar "n") (CLit 0)) (SRet (CLit 1))
    (SVarD "acc" TU64 (Some (CCall "Sum" (CACons (CBin OSub (CVar "n") (CLit 1)) (CACons (CVar "x") CANil))))
      (SOpAsg OAdd "acc" (CVar "x")
        (SIncD true "acc"
          (SIfT (CBin OGt (CVar "acc") (CLit 10)) (SAsg "acc" (CBin OSub (CVar "acc") (CLit 3)) (SRet (CVar "acc")))
             (SRet (CVar "acc")))))) |}.
Definition sx_use : sfunc := {| sf_name := "Use"; sf_params := [("y", TU64)]; sf_body :=
  SVarD "t" TU64 None
    (SAsg "t" (CBin OAdd (CCall "Sum" (CACons (CLit 2) (CACons (CVar "y") CANil))) (CCall "Sum" (CACons (CLit 1) (CACons (CLit 5) CANil))))
      (SLet "u" (CBin OMul (CVar "t") (CLit 2)) (SRet (CBin OAdd (CVar "u") (CVar "t"))))) |}.
Definition sx_prog : sprog := [sx_sum; sx_use].

Lemma sx_prog_accepted_and_returns :
  (exists vs, trs_prog sx_prog = Some vs /\ length vs = 2%nat) /\
  (exists s', sgo_call 200 sx_prog "Use" [LitV (LitInt 4)] = Some (LitV (LitInt 45), s')) /\
  (exists s', sgo_call 200 sx_prog "Sum" [LitV (LitInt 3); LitV (LitInt 2)] = Some (LitV (LitInt 10), s')).
Proof. split; [eexists; split; [vm_compute; reflexivity|reflexivity]|split; eexists; vm_compute; reflexivity]. Qed.

(* ---------------------------------------------------------------- rejected or faithful *)
Theorem sprog_rejected_or_faithful P :
  trs_prog P = None \/
  exists vs, trs_prog P = Some vs /\
    Forall2 (fun fn F => forall n args v s s',
               length args = length (sf_params fn) ->
               sgo_body n P (rev (combine (map fst (sf_params fn)) (map Imm args))) s (sf_body fn) = Some (v, s') ->
               evals (call_expr F args) s v s') P vs.
Proof.
  destruct (trs_prog P) as [vs|] eqn:E; [right|left; reflexivity].
  exists vs. split; [reflexivity|apply sprog_correct, E].
Qed.

(* the refusals of the fragment *)
Lemma srejects_assign_to_letbound T self G x t e k :
  tlookup x G = Some (false, t) -> trs_body T self G (SAsg x e k) = None.
Proof. intros H. cbn [trs_body]. rewrite H. reflexivity. Qed.

Lemma srejects_assign_to_undeclared T self G x e k :
  tlookup x G = None -> trs_body T self G (SAsg x e k) = None.
Proof. intros H. cbn [trs_body]. rewrite H. reflexivity. Qed.

Lemma srejects_unsupported_opassign T self G x e k op :
  assign_op op = false -> trs_body T self G (SOpAsg op x e k) = None.
Proof.
  intros H. cbn [trs_body]. destruct (tlookup x G) as [[[] t]|]; try reflexivity.
  destruct (trs_expr T self G e); [|reflexivity]. destruct (trs_body T self G k); [|reflexivity]. rewrite H. reflexivity.
Qed.

Lemma srejects_incdec_of_letbound T self G x t inc k :
  tlookup x G = Some (false, t) -> trs_body T self G (SIncD inc x k) = None.
Proof. intros H. cbn [trs_body]. rewrite H. reflexivity. Qed.

Lemma srejects_param_named_like_function T name ps1 t ps2 body :
  trs_func T {| sf_name := name; sf_params := ps1 ++ (name, t) :: ps2; sf_body := body |} = None.
Proof.
  unfold trs_func. cbn [sf_name sf_params].
  assert (H : smem name (map fst (ps1 ++ (name, t) :: ps2)) = true).
  { apply smem_In. rewrite map_app. apply in_or_app. right. left. reflexivity. }
  rewrite H. cbn [negb]. rewrite andb_false_r. reflexivity.
Qed.

(* ---------------------------------------------------------------- Go's result is well defined *)
Local Open Scope nat_scope.
Lemma sgo_simple_mono (ev1 ev2 : genv -> state -> cexpr -> option (val * state)) r s st :
  (forall r0 s0 e, le_opt (ev1 r0 s0 e) (ev2 r0 s0 e)) -> le_opt (sgo_simple ev1 r s st) (sgo_simple ev2 r s st).
Proof.
  intros Hev. destruct st as [y e|y t [e|]|y e|op y e|inc y]; cbn [sgo_simple]; try apply le_opt_refl.
  - apply le_opt_bind; [apply Hev|intros [v s1]; apply le_opt_refl].
  - apply le_opt_bind; [apply Hev|intros [v s1]; apply le_opt_refl].
  - destruct (glookup y r) as [[|b]|]; try apply le_opt_refl. apply le_opt_bind; [apply Hev|intros [v s1]; apply le_opt_refl].
  - destruct (glookup y r) as [[|b]|]; try apply le_opt_refl. apply le_opt_bind; [apply Hev|intros [v s1]; apply le_opt_refl].
Qed.

Lemma sgo_mono P : forall n m, n <= m ->
  (forall r s e, le_opt (sgo_expr n P r s e) (sgo_expr m P r s e)) /\
  (forall r s a, le_opt (sgo_args n P r s a) (sgo_args m P r s a)) /\
  (forall r s l, le_opt (sgo_loc n P r s l) (sgo_loc m P r s l)) /\
  (forall r s b, le_opt (sgo_body n P r s b) (sgo_body m P r s b)).
Proof.
  induction n as [|n IH]; intros m Hle.
  { repeat split; intros; discriminate. }
  destruct m as [|m]; [lia|]. destruct (IH m ltac:(lia)) as (IHE & IHA & IHL & IHB).
  repeat split.
  - intros r s e. destruct e as [k|b|y|op a b|a|f args]; try apply le_opt_refl.
    + destruct (strict op) eqn:Hst; [|destruct op; try discriminate Hst; cbn [sgo_expr]].
      * rewrite !(sgo_expr_strict Hst). destruct (swapped op).
        -- apply le_opt_bind; [apply IHE|intros [va s1]]. apply le_opt_bind; [apply IHE|intros [vb s2]; apply le_opt_refl].
        -- apply le_opt_bind; [apply IHE|intros [vb s1]]. apply le_opt_bind; [apply IHE|intros [va s2]; apply le_opt_refl].
      * apply le_opt_bind; [apply IHE|intros [[[| | |[]| | | |]| | |] s1]]; try apply le_opt_refl.
        apply le_opt_bind; [apply IHE|intros [vb s2]; apply le_opt_refl].
      * apply le_opt_bind; [apply IHE|intros [[[| | |[]| | | |]| | |] s1]]; try apply le_opt_refl.
        apply le_opt_bind; [apply IHE|intros [vb s2]; apply le_opt_refl].
    + cbn [sgo_expr]. apply le_opt_bind; [apply IHE|intros [va s1]; apply le_opt_refl].
    + cbn [sgo_expr]. destruct (glookup f r); [apply le_opt_refl|]. destruct (find_sfunc f P) as [fg|]; [|apply le_opt_refl].
      apply le_opt_bind; [apply IHA|intros [vs s1]]. destruct (Nat.eqb _ _); [apply IHB|apply le_opt_refl].
  - intros r s a. destruct a as [|a rest]; cbn [sgo_args]; [apply le_opt_refl|].
    apply le_opt_bind; [apply IHA|intros [vs s1]]. apply le_opt_bind; [apply IHE|intros [v s2]; apply le_opt_refl].
  - intros r s l. destruct l as [|st k|c th el k]; cbn [sgo_loc]; [apply le_opt_refl| |].
    + apply le_opt_bind; [apply sgo_simple_mono, IHE|intros [r1 s1]; apply IHL].
    + apply le_opt_bind; [apply IHE|intros [[[| | |cb| | | |]| | |] s1]]; try apply le_opt_refl.
      apply le_opt_bind; [apply IHL|intros s2; apply IHL].
  - intros r s b. destruct (shead b) as [[st k]|] eqn:Eh.
    + rewrite !(sgo_body_head Eh). apply le_opt_bind; [apply sgo_simple_mono, IHE|intros [r1 s1]; apply IHB].
    + destruct b as [c th el k|e| | | | | |c th el]; try discriminate Eh; cbn [sgo_body].
      * apply le_opt_bind; [apply IHE|intros [[[| | |cb| | | |]| | |] s1]]; try apply le_opt_refl.
        apply le_opt_bind; [apply IHL|intros s2; apply IHB].
      * apply IHE.
      * apply le_opt_bind; [apply IHE|intros [[[| | |cb| | | |]| | |] s1]]; try apply le_opt_refl. apply IHB.
Qed.

Theorem sgo_call_fuel_irrelevant P f args n m x y :
  sgo_call n P f args = Some x -> sgo_call m P f args = Some y -> x = y.
Proof.
  unfold sgo_call. destruct (find_sfunc f P) as [fn|]; [|discriminate].
  destruct (Nat.eqb (length args) (length (sf_params fn))); [|discriminate].
  intros Hn Hm.
  pose proof (proj2 (proj2 (proj2 (sgo_mono P n (n + m) ltac:(lia)))) _ _ _ _ Hn) as H1.
  pose proof (proj2 (proj2 (proj2 (sgo_mono P m (n + m) ltac:(lia)))) _ _ _ _ Hm) as H2.
  rewrite H1 in H2. injection H2 as ->. reflexivity.
Qed.
