(* Calls preserve meaning: for a package of the MiniGoC fragment that the
   translator model accepts, every function, every argument vector and every
   run of Go that returns, the value goose emits for the function, applied to
   the arguments, evaluates under the reference semantics to the value Go
   returns - through any depth of calls and recursion. *)
From Coq Require Import String List ZArith Bool Lia.
From GV Require Import Lang.GlSyntax Tr.MiniGo Tr.MiniGoProofs Tr.MiniGoC.
Import ListNotations.
Local Open Scope nat_scope.
Local Open Scope list_scope.

(* what the caller writes: f #() for a function without parameters *)
Definition call_expr (F : val) (args : list val) : expr :=
  match args with
  | [] => App (Val F) UnitE
  | _ => fold_left App (map Val args) (Val F)
  end.

(* ---------------------------------------------------------------- lists and lookups *)
Lemma Forall2_weaken {A B} {R1 R2 : A -> B -> Prop} {l1 l2} :
  (forall a b, R1 a b -> R2 a b) -> Forall2 R1 l1 l2 -> Forall2 R2 l1 l2.
Proof. intros Hi HF. induction HF; constructor; auto. Qed.

Lemma Forall2_nth {A B} {R : A -> B -> Prop} {l1 l2 i a} :
  Forall2 R l1 l2 -> nth_error l1 i = Some a -> exists b, nth_error l2 i = Some b /\ R a b.
Proof.
  intros HF. revert i. induction HF as [|x y l1 l2 H _ IH]; intros [|i] Hi; cbn [nth_error] in Hi |- *; try discriminate.
  - injection Hi as ->. exists y. split; [reflexivity|exact H].
  - apply IH, Hi.
Qed.

Lemma smem_In x l : smem x l = true <-> In x l.
Proof.
  induction l as [|y l IH]; cbn [smem In]; [split; [discriminate|tauto]|].
  rewrite orb_true_iff, IH, String.eqb_eq. split; intros [H|H]; auto.
Qed.

Lemma nodupb_NoDup l : nodupb l = true -> NoDup l.
Proof.
  induction l as [|x l IH]; cbn [nodupb]; intros H; [constructor|].
  apply andb_true_iff in H. destruct H as [H1 H2]. constructor; [|apply IH, H2].
  intros Hin. apply smem_In in Hin. rewrite Hin in H1. discriminate.
Qed.

(* the check of trc_func and trs_func on the parameters *)
Lemma params_NoDup name ps : nodupb ps && negb (smem name ps) = true -> NoDup (name :: ps).
Proof. intros H. apply nodupb_NoDup. cbn [nodupb]. rewrite andb_comm. exact H. Qed.

Lemma clookup_app_l x r E v : elookup x r = Some v -> clookup x (r ++ E) = Some v.
Proof. induction r as [|[y w] r IH]; cbn [elookup clookup app]; [discriminate|]. destruct (String.eqb x y); auto. Qed.

Lemma clookup_app_r x r F : elookup x r = None -> clookup x (r ++ [(x, F)]) = Some F.
Proof.
  induction r as [|[y w] r IH]; cbn [elookup clookup app].
  - rewrite String.eqb_refl. reflexivity.
  - destruct (String.eqb x y); [discriminate|exact IH].
Qed.

Lemma find_func_In f P fn : find_func f P = Some fn -> In fn P /\ cf_name fn = f.
Proof.
  induction P as [|g P IH]; cbn [find_func In]; [discriminate|].
  destruct (String.eqb f (cf_name g)) eqn:E; [|intros H; destruct (IH H); auto].
  intros [= <-]. apply String.eqb_eq in E. auto.
Qed.

Lemma find_func_app P0 fn P1 : ~ In (cf_name fn) (map cf_name P0) -> find_func (cf_name fn) (P0 ++ fn :: P1) = Some fn.
Proof.
  induction P0 as [|g P0 IH]; cbn [app find_func map In]; intros Hn.
  - rewrite String.eqb_refl. reflexivity.
  - destruct (String.eqb (cf_name fn) (cf_name g)) eqn:E.
    + apply String.eqb_eq in E. exfalso. apply Hn. left. auto.
    + apply IH. tauto.
Qed.

(* ---------------------------------------------------------------- tables *)
(* a table all of whose entries are translations of functions of the package,
   each against the table before it *)
Inductive good (P : cprog) : ftable -> Prop :=
| good_nil : good P []
| good_cons T fn v : good P T -> find_func (cf_name fn) P = Some fn -> trc_func T fn = Some v ->
    good P ((cf_name fn, v) :: T).

Definition inside (P : cprog) (T : ftable) (fn : cfunc) (F : val) : Prop :=
  good P T /\ find_func (cf_name fn) P = Some fn /\ trc_func T fn = Some F.

Lemma good_lookup P T g v : good P T -> flookup g T = Some v ->
  exists Tg fn, inside P Tg fn v /\ cf_name fn = g.
Proof.
  induction 1 as [|T fn w Hg IH Hf Ht]; cbn [flookup]; [discriminate|].
  destruct (String.eqb g (cf_name fn)) eqn:E.
  - apply String.eqb_eq in E. subst g. intros [= <-]. exists T, fn. repeat split; auto.
  - exact IH.
Qed.

Lemma cgo_expr_strict {n P r op a b} : strict op = true ->
  cgo_expr (S n) P r (CBin op a b) =
  match cgo_expr n P r a, cgo_expr n P r b with Some va, Some vb => go_binop op va vb | _, _ => None end.
Proof. destruct op; try discriminate; reflexivity. Qed.

(* ---------------------------------------------------------------- the theorem *)
Section Main.
Variable P : cprog.

(* The statements of the induction on Go's fuel n.  Each speaks of every
   function fn translated to F against any table T of the package (inside), so
   that a callee, translated against a shorter table than its caller, falls
   under the same induction hypothesis. *)
Definition PE (n : nat) : Prop := forall T fn F r e e' v s, inside P T fn F ->
  trc_expr T (cf_name fn) (map fst r) e = Some e' -> cgo_expr n P r e = Some v ->
  evals (close (r ++ [(cf_name fn, F)]) e') s v s.

Definition PA (n : nat) : Prop := forall T fn F r args acc e' vs, inside P T fn F ->
  trc_args T (cf_name fn) (map fst r) args acc = Some e' -> cgo_args n P r args = Some vs ->
  exists es, e' = fold_left App es acc /\
    Forall2 (fun a v => forall s, evals (close (r ++ [(cf_name fn, F)]) a) s v s) es vs.

Definition PB (n : nat) : Prop := forall T fn F r b b' v s, inside P T fn F ->
  trc_body T (cf_name fn) (map fst r) b = Some b' -> cgo_body n P r b = Some v ->
  evals (close (r ++ [(cf_name fn, F)]) b') s v s.

(* the function part of a call closes to the emitted value of the callee: the
   function itself through the recursion binder, an earlier one from the table *)
Lemma callee_value T fn F r f fg fe : inside P T fn F -> elookup f r = None -> find_func f P = Some fg ->
  (if String.eqb f (cf_name fn) then Some (Var f) else option_map Val (flookup f T)) = Some fe ->
  exists Tg Fg, inside P Tg fg Fg /\ close (r ++ [(cf_name fn, F)]) fe = Val Fg.
Proof.
  intros Hin El Ef Hfe. destruct (String.eqb f (cf_name fn)) eqn:Eself.
  - apply String.eqb_eq in Eself. subst f. injection Hfe as <-. exists T, F.
    destruct Hin as (Hg & Hf & Ht). rewrite Hf in Ef. injection Ef as <-.
    split; [repeat split; assumption|]. rewrite close_var, (clookup_app_r _ _ _ El). reflexivity.
  - destruct (flookup f T) as [vg|] eqn:Efl; [|discriminate]. injection Hfe as <-.
    destruct Hin as (Hg & _ & _). destruct (good_lookup _ _ _ _ Hg Efl) as (Tg & fn' & Hin' & Hname).
    pose proof Hin' as (_ & Hf' & _). rewrite Hname, Ef in Hf'. injection Hf' as <-.
    exists Tg, vg. split; [exact Hin'|apply close_val].
Qed.

(* entering a function: from the body to the application of the emitted value *)
Lemma enter_correct n T fn F args v s : PB n -> inside P T fn F ->
  length args = length (cf_params fn) ->
  cgo_body n P (rev (combine (cf_params fn) args)) (cf_body fn) = Some v ->
  evals (call_expr F args) s v s.
Proof.
  intros HB Hin Hlen Hgo. pose proof Hin as (Hg & Hf & Ht). unfold trc_func in Ht.
  destruct (nodupb (cf_params fn) && negb (smem (cf_name fn) (cf_params fn))) eqn:Ec; [|discriminate].
  destruct (trc_body T (cf_name fn) (rev (cf_params fn)) (cf_body fn)) as [body|] eqn:Eb; [|discriminate].
  apply (call_header _ _ body F args s v s Ht (params_NoDup _ _ Ec) Hlen).
  apply (HB T fn F _ (cf_body fn) _ v s Hin); [|exact Hgo]. rewrite map_rev, map_fst_combine by lia. exact Eb.
Qed.

Theorem all_correct : forall n, PE n /\ PA n /\ PB n.
Proof.
  induction n as [|n (IHE & IHA & IHB)].
  { unfold PE, PA, PB. split; [|split]; intros;
    match goal with H0 : _ O _ _ _ = Some _ |- _ => cbn in H0; discriminate H0 end. }
  split; [|split].
  - (* expressions *)
    intros T fn F r e e' v s Hin Htr Hgo. set (cs := (r ++ [(cf_name fn, F)])%list).
    destruct e as [k|b|x|op a b|a|f args].
    + cbn in Htr, Hgo. injection Htr as <-. injection Hgo as <-. apply evals_close_val.
    + cbn in Htr, Hgo. injection Htr as <-. injection Hgo as <-. apply evals_close_val.
    + cbn [trc_expr] in Htr. destruct (smem x (map fst r)); [|discriminate]. injection Htr as <-.
      cbn [cgo_expr] in Hgo. unfold cs. rewrite close_var, (clookup_app_l _ _ _ _ Hgo). apply evals_val.
    + cbn [trc_expr] in Htr.
      destruct (trc_expr T (cf_name fn) (map fst r) a) as [a'|] eqn:Ea; [|discriminate].
      destruct (trc_expr T (cf_name fn) (map fst r) b) as [b'|] eqn:Eb; [|discriminate].
      destruct (strict op) eqn:Hst; [|destruct op; try discriminate Hst].
      * rewrite (cgo_expr_strict Hst) in Hgo.
        destruct (cgo_expr n P r a) as [va|] eqn:Ga; [|discriminate].
        destruct (cgo_expr n P r b) as [vb|] eqn:Gb; [|discriminate].
        eapply go_binop_sound; [exact Hgo|apply (IHE _ _ _ _ _ _ _ s Hin Ea Ga)|apply (IHE _ _ _ _ _ _ _ s Hin Eb Gb)|apply close_tr_binop, Htr].
      * (* && *)
        cbn [cgo_expr] in Hgo. destruct (cgo_expr n P r a) as [[[| | |ba| | | |]| | |]|] eqn:Ga; try discriminate.
        eapply tr_binop_short; [apply close_tr_binop, Htr|apply (IHE _ _ _ _ _ _ _ s Hin Ea Ga)|]. destruct ba; [|injection Hgo as <-; auto].
        destruct (cgo_expr n P r b) as [[[| | |x| | | |]| | |]|] eqn:Gb; try discriminate. injection Hgo as <-. apply (IHE _ _ _ _ _ _ _ s Hin Eb Gb).
      * (* || *)
        cbn [cgo_expr] in Hgo. destruct (cgo_expr n P r a) as [[[| | |ba| | | |]| | |]|] eqn:Ga; try discriminate.
        eapply tr_binop_short; [apply close_tr_binop, Htr|apply (IHE _ _ _ _ _ _ _ s Hin Ea Ga)|]. destruct ba; [injection Hgo as <-; auto|].
        destruct (cgo_expr n P r b) as [[[| | |x| | | |]| | |]|] eqn:Gb; try discriminate. injection Hgo as <-. apply (IHE _ _ _ _ _ _ _ s Hin Eb Gb).
    + cbn [trc_expr] in Htr. destruct (trc_expr T (cf_name fn) (map fst r) a) as [a'|] eqn:Ea; [|discriminate]. injection Htr as <-.
      cbn [cgo_expr] in Hgo. destruct (cgo_expr n P r a) as [[[| | |x| | | |]| | |]|] eqn:Ga; try discriminate. injection Hgo as <-.
      rewrite close_unop. eapply evals_unop; [apply (IHE _ _ _ _ _ _ _ s Hin Ea Ga)|reflexivity].
    + (* calls *)
      cbn [trc_expr] in Htr. destruct (smem f (map fst r)) eqn:Esm; [discriminate|].
      cbn [cgo_expr] in Hgo.
      destruct (elookup f r) as [?|] eqn:El; [discriminate|].
      destruct (find_func f P) as [fg|] eqn:Ef; [|discriminate].
      destruct (cgo_args n P r args) as [vs|] eqn:Eargs; [|discriminate].
      destruct (Nat.eqb (length vs) (length (cf_params fg))) eqn:Elen; [|discriminate].
      apply Nat.eqb_eq in Elen.
      destruct (if String.eqb f (cf_name fn) then Some (Var f) else option_map Val (flookup f T)) as [fe|] eqn:Efe; [|discriminate].
      destruct (callee_value T fn F r f fg fe Hin El Ef Efe) as (Tg & Fg & Hing & Hcl). fold cs in Hcl.
      pose proof (enter_correct n Tg fg Fg vs v s IHB Hing Elen Hgo) as Hcall.
      destruct args as [|a rest].
      * injection Htr as <-. destruct n as [|n']; [discriminate|]. cbn [cgo_args] in Eargs. injection Eargs as <-.
        cbn [call_expr] in Hcall. rewrite close_app, Hcl. unfold UnitE. rewrite close_val. exact Hcall.
      * destruct (IHA _ _ _ _ _ _ _ _ Hin Htr Eargs) as (es & -> & HF).
        rewrite close_apps, Hcl.
        assert (Hvs : vs <> []).
        { destruct n as [|n']; [discriminate|]. cbn [cgo_args] in Eargs.
          destruct (cgo_expr n' P r a); [|discriminate]. destruct (cgo_args n' P r rest); [|discriminate]. injection Eargs as <-. discriminate. }
        destruct vs as [|v1 vs]; [congruence|]. cbn [call_expr] in Hcall.
        eapply evals_apps_args; [|exact Hcall].
        clear -HF. induction HF as [|a0 v0 es0 vs0 H0 _ IH]; cbn [map]; constructor; auto.
  - (* arguments *)
    intros T fn F r args acc e' vs Hin Htr Hgo. destruct args as [|a rest]; cbn [trc_args cgo_args] in Htr, Hgo.
    + injection Htr as <-. injection Hgo as <-. exists []. split; [reflexivity|constructor].
    + destruct (trc_expr T (cf_name fn) (map fst r) a) as [a'|] eqn:Ea; [|discriminate].
      destruct (cgo_expr n P r a) as [v|] eqn:Ga; [|discriminate].
      destruct (cgo_args n P r rest) as [vs'|] eqn:Gr; [|discriminate]. injection Hgo as <-.
      destruct (IHA _ _ _ _ _ _ _ _ Hin Htr Gr) as (es & -> & HF).
      exists (a' :: es). split; [reflexivity|]. constructor; [|exact HF].
      intros s. apply (IHE _ _ _ _ _ _ _ s Hin Ea Ga).
  - (* bodies *)
    intros T fn F r b b' v s Hin Htr Hgo. destruct b as [e|x e k|c th el]; cbn [trc_body cgo_body] in Htr, Hgo.
    + apply (IHE _ _ _ _ _ _ _ s Hin Htr Hgo).
    + destruct (trc_expr T (cf_name fn) (map fst r) e) as [e1|] eqn:Ee; [|discriminate].
      destruct (trc_body T (cf_name fn) (x :: map fst r) k) as [k'|] eqn:Ek; [|discriminate]. injection Htr as <-.
      destruct (cgo_expr n P r e) as [v1|] eqn:Ge; [|discriminate].
      eapply evals_close_letin; [apply (IHE _ _ _ _ _ _ _ s Hin Ee Ge)|].
      cbn [bind]. change ((x, v1) :: r ++ [(cf_name fn, F)])%list with (((x, v1) :: r) ++ [(cf_name fn, F)])%list.
      apply (IHB T fn F ((x, v1) :: r) k k' v s Hin); [exact Ek|exact Hgo].
    + destruct (trc_expr T (cf_name fn) (map fst r) c) as [c'|] eqn:Ec; [|discriminate].
      destruct (trc_body T (cf_name fn) (map fst r) th) as [t'|] eqn:Et; [|discriminate].
      destruct (trc_body T (cf_name fn) (map fst r) el) as [l'|] eqn:El; [|discriminate]. injection Htr as <-.
      destruct (cgo_expr n P r c) as [[[| | |cb| | | |]| | |]|] eqn:Gc; try discriminate.
      rewrite close_if. eapply evals_if; [apply (IHE _ _ _ _ _ _ _ s Hin Ec Gc)|].
      destruct cb; [apply (IHB _ _ _ _ _ _ _ s Hin Et Hgo)|apply (IHB _ _ _ _ _ _ _ s Hin El Hgo)].
Qed.
End Main.

(* ---------------------------------------------------------------- packages *)
Lemma prog_inside P : forall P1 P0 T R, P = (P0 ++ P1)%list -> good P T -> map fst T = rev (map cf_name P0) ->
  trc_prog_from T P1 = Some R -> Forall2 (fun fn F => exists Tg, inside P Tg fn F) P1 (map snd R).
Proof.
  induction P1 as [|fn P1 IH]; intros P0 T R HP Hg Hfst Htr; cbn [trc_prog_from] in Htr.
  - injection Htr as <-. constructor.
  - destruct (negb (smem (cf_name fn) (map fst T))) eqn:Enm; [|discriminate].
    destruct (trc_func T fn) as [v|] eqn:Ef; [|discriminate].
    destruct (trc_prog_from ((cf_name fn, v) :: T) P1) as [R'|] eqn:Er; [|discriminate]. injection Htr as <-.
    assert (Hfind : find_func (cf_name fn) P = Some fn).
    { rewrite HP. apply find_func_app. intros Hin. apply in_rev in Hin. rewrite <- Hfst in Hin.
      apply smem_In in Hin. rewrite Hin in Enm. discriminate. }
    constructor; [exists T; repeat split; assumption|].
    apply (IH (P0 ++ [fn])%list ((cf_name fn, v) :: T)); [rewrite <- app_assoc; exact HP|constructor; assumption| |exact Er].
    cbn [map fst]. rewrite map_app, rev_app_distr. cbn [map rev app]. rewrite Hfst. reflexivity.
Qed.

(* the i-th emitted value implements the i-th function of the package *)
Theorem prog_correct P vs :
  trc_prog P = Some vs ->
  Forall2 (fun fn F => forall n args v s,
             length args = length (cf_params fn) ->
             cgo_body n P (rev (combine (cf_params fn) args)) (cf_body fn) = Some v ->
             evals (call_expr F args) s v s) P vs.
Proof.
  unfold trc_prog. destruct (trc_prog_from [] P) as [R|] eqn:Er; [|discriminate]. cbn [option_map]. intros [= <-].
  refine (Forall2_weaken _ (prog_inside P P [] [] R eq_refl (good_nil P) eq_refl Er)).
  intros fn F [Tg Hin] n args v s Hlen Hgo. eapply enter_correct; [apply all_correct|eassumption..].
Qed.

(* by name, as the harness calls it *)
Theorem call_correct P vs n f args v :
  trc_prog P = Some vs -> cgo_call n P f args = Some v ->
  exists i fn F, nth_error P i = Some fn /\ cf_name fn = f /\ nth_error vs i = Some F /\
    forall s, evals (call_expr F args) s v s.
Proof.
  intros Htr Hgo. pose proof (prog_correct P vs Htr) as HF. unfold cgo_call in Hgo.
  destruct (find_func f P) as [fn|] eqn:Ef; [|discriminate].
  destruct (Nat.eqb (length args) (length (cf_params fn))) eqn:El; [|discriminate]. apply Nat.eqb_eq in El.
  apply find_func_In in Ef as [Hin Hname]. destruct (In_nth_error _ _ Hin) as [i Hi].
  destruct (Forall2_nth HF Hi) as (F & HnF & Hc).
  exists i, fn, F. repeat split; auto. intros s. eapply Hc; eassumption.
Qed.

(* ---------------------------------------------------------------- non-vacuity *)
Open Scope string_scope.
Definition ex_gcd : cfunc := {| cf_name := "Gcd"; cf_params := ["a"; "b"]; cf_body :=
  CIf (CBin OEq (CVar "b") (CLit 0)) (CRet (CVar "a"))
      (CRet (CCall "Gcd" (CACons (CVar "b") (CACons (CBin ORem (CVar "a") (CVar "b")) CANil)))) |}.
Definition ex_seven : cfunc := {| cf_name := "Seven"; cf_params := []; cf_body := CRet (CLit 7) |}.
Definition ex_use : cfunc := {| cf_name := "Use"; cf_params := ["x"; "y"]; cf_body :=
  CLet "z" (CCall "Gcd" (CACons (CBin OAdd (CVar "x") (CLit 1)) (CACons (CCall "Seven" CANil) CANil)))
   (CIf (CBin OLAnd (CVar "y") (CBin OGt (CVar "z") (CLit 3)))
      (CLet "w" (CCall "Use" (CACons (CBin OSub (CVar "x") (CLit 1)) (CACons (CBool false) CANil)))
            (CRet (CBin OAdd (CVar "w") (CVar "z"))))
      (CRet (CCall "Gcd" (CACons (CVar "z") (CACons (CCall "Gcd" (CACons (CVar "x") (CACons (CLit 3) CANil))) CANil))))) |}.
Definition ex_prog : cprog := [ex_gcd; ex_seven; ex_use].

Lemma ex_prog_accepted_and_returns :
  (exists vs, trc_prog ex_prog = Some vs /\ length vs = 3%nat) /\
  cgo_call 200 ex_prog "Use" [LitV (LitInt 48); LitV (LitBool true)] = Some (LitV (LitInt 8)) /\
  cgo_call 200 ex_prog "Gcd" [LitV (LitInt 48); LitV (LitInt 18)] = Some (LitV (LitInt 6)).
Proof. split; [eexists; split; [vm_compute; reflexivity|reflexivity]|split; vm_compute; reflexivity]. Qed.

(* the order matters: a package in which a later function is used before it is
   emitted has no translation *)
Lemma rejects_use_before_definition :
  trc_prog [ex_use; ex_gcd; ex_seven] = None.
Proof. vm_compute. reflexivity. Qed.

(* ---------------------------------------------------------------- Go's result is well defined *)
Definition le_opt {A} (a b : option A) : Prop := forall x, a = Some x -> b = Some x.

Lemma le_opt_refl {A} (a : option A) : le_opt a a.
Proof. intros x H. exact H. Qed.

(* the evaluators sequence their recursive calls by matches of this form *)
Lemma le_opt_bind {A B} (a a' : option A) (k k' : A -> option B) :
  le_opt a a' -> (forall x, le_opt (k x) (k' x)) ->
  le_opt (match a with Some x => k x | None => None end) (match a' with Some x => k' x | None => None end).
Proof. intros Ha Hk y. destruct a as [x|]; [|discriminate]. rewrite (Ha x eq_refl). apply Hk. Qed.

Lemma cgo_mono P : forall n m, n <= m ->
  (forall r e, le_opt (cgo_expr n P r e) (cgo_expr m P r e)) /\
  (forall r a, le_opt (cgo_args n P r a) (cgo_args m P r a)) /\
  (forall r b, le_opt (cgo_body n P r b) (cgo_body m P r b)).
Proof.
  induction n as [|n IH]; intros m Hle.
  { repeat split; intros; discriminate. }
  destruct m as [|m]; [lia|]. destruct (IH m ltac:(lia)) as (IHE & IHA & IHB).
  repeat split.
  - intros r e. destruct e as [k|b|x|op a b|a|f args]; try apply le_opt_refl.
    + destruct (strict op) eqn:Hst; [|destruct op; try discriminate Hst; cbn [cgo_expr]].
      * rewrite !(cgo_expr_strict Hst).
        apply le_opt_bind; [apply IHE|intros va]. apply le_opt_bind; [apply IHE|intros vb; apply le_opt_refl].
      * apply le_opt_bind; [apply IHE|intros [[| | |[]| | | |]| | |]]; try apply le_opt_refl.
        apply le_opt_bind; [apply IHE|intros vb; apply le_opt_refl].
      * apply le_opt_bind; [apply IHE|intros [[| | |[]| | | |]| | |]]; try apply le_opt_refl.
        apply le_opt_bind; [apply IHE|intros vb; apply le_opt_refl].
    + cbn [cgo_expr]. apply le_opt_bind; [apply IHE|intros va; apply le_opt_refl].
    + cbn [cgo_expr]. destruct (elookup f r); [apply le_opt_refl|]. destruct (find_func f P) as [fg|]; [|apply le_opt_refl].
      apply le_opt_bind; [apply IHA|intros vs]. destruct (Nat.eqb _ _); [apply IHB|apply le_opt_refl].
  - intros r a. destruct a as [|a rest]; cbn [cgo_args]; [apply le_opt_refl|].
    apply le_opt_bind; [apply IHE|intros v]. apply le_opt_bind; [apply IHA|intros vs; apply le_opt_refl].
  - intros r b. destruct b as [e|x e k|c th el]; cbn [cgo_body].
    + apply IHE.
    + apply le_opt_bind; [apply IHE|intros v; apply IHB].
    + apply le_opt_bind; [apply IHE|intros [[| | |cb| | | |]| | |]]; try apply le_opt_refl. apply IHB.
Qed.

Theorem cgo_call_fuel_irrelevant P f args n m v w :
  cgo_call n P f args = Some v -> cgo_call m P f args = Some w -> v = w.
Proof.
  unfold cgo_call. destruct (find_func f P) as [fn|]; [|discriminate].
  destruct (Nat.eqb (length args) (length (cf_params fn))); [|discriminate].
  intros Hn Hm.
  pose proof (proj2 (proj2 (cgo_mono P n (n + m) ltac:(lia))) _ _ _ Hn) as H1.
  pose proof (proj2 (proj2 (cgo_mono P m (n + m) ltac:(lia))) _ _ _ Hm) as H2.
  rewrite H1 in H2. injection H2 as ->. reflexivity.
Qed.

(* ---------------------------------------------------------------- accepted packages are in dependency order *)
(* (the premise of C04's defined-before-use, for this fragment: what trc_prog
   accepts is emitted callee first, under pairwise distinct names, one value
   per function) *)
Local Open Scope list_scope.

Fixpoint callees_e (e : cexpr) : list string :=
  match e with
  | CLit _ | CBool _ | CVar _ => []
  | CBin _ a b => callees_e a ++ callees_e b
  | CNot a => callees_e a
  | CCall f args => f :: callees_a args
  end
with callees_a (a : cargs) : list string :=
  match a with
  | CANil => []
  | CACons e rest => callees_e e ++ callees_a rest
  end.

Fixpoint callees_b (b : cbody) : list string :=
  match b with
  | CRet e => callees_e e
  | CLet _ e k => callees_e e ++ callees_b k
  | CIf c th el => callees_e c ++ callees_b th ++ callees_b el
  end.

Scheme cexpr_ind2 := Induction for cexpr Sort Prop
  with cargs_ind2 := Induction for cargs Sort Prop.
Combined Scheme cexpr_cargs_ind from cexpr_ind2, cargs_ind2.

Lemma flookup_In f T v : flookup f T = Some v -> In f (map fst T).
Proof.
  induction T as [|[g w] T IH]; cbn [flookup map fst In]; [discriminate|].
  destruct (String.eqb f g) eqn:E; [apply String.eqb_eq in E; auto|auto].
Qed.

Lemma trc_callees T self :
  (forall e G e', trc_expr T self G e = Some e' -> forall g, In g (callees_e e) -> g = self \/ In g (map fst T)) /\
  (forall a G acc e', trc_args T self G a acc = Some e' -> forall g, In g (callees_a a) -> g = self \/ In g (map fst T)).
Proof.
  apply cexpr_cargs_ind.
  - intros n G e' _ g [].
  - intros b G e' _ g [].
  - intros x G e' _ g [].
  - intros op a IHa b IHb G e' H g Hin. cbn [trc_expr] in H.
    destruct (trc_expr T self G a) eqn:Ea; [|discriminate]. destruct (trc_expr T self G b) eqn:Eb; [|discriminate].
    cbn [callees_e] in Hin. apply in_app_or in Hin. destruct Hin; eauto.
  - intros a IHa G e' H g Hin. cbn [trc_expr] in H. destruct (trc_expr T self G a) eqn:Ea; [|discriminate]. eauto.
  - intros f args IHargs G e' H g Hin. cbn [trc_expr] in H. destruct (smem f G); [discriminate|].
    cbn [callees_e In] in Hin. destruct Hin as [<-|Hin].
    + destruct (String.eqb f self) eqn:Es; [left; apply String.eqb_eq, Es|].
      destruct (flookup f T) eqn:Ef; [right; eapply flookup_In, Ef|discriminate].
    + destruct (if String.eqb f self then Some (Var f) else option_map Val (flookup f T)) as [fe|]; [|discriminate].
      destruct args as [|a rest]; [destruct Hin|]. eapply IHargs; eassumption.
  - intros G acc e' _ g [].
  - intros a IHa rest IHrest G acc e' H g Hin. cbn [trc_args] in H.
    destruct (trc_expr T self G a) eqn:Ea; [|discriminate].
    cbn [callees_a] in Hin. apply in_app_or in Hin. destruct Hin; eauto.
Qed.

Lemma trc_body_callees T self : forall b G b', trc_body T self G b = Some b' ->
  forall g, In g (callees_b b) -> g = self \/ In g (map fst T).
Proof.
  induction b as [e|x e k IHk|c th IHt el IHe]; intros G b' H g Hin; cbn [trc_body callees_b] in H, Hin.
  - eapply (proj1 (trc_callees T self)); eassumption.
  - destruct (trc_expr T self G e) eqn:Ee; [|discriminate]. destruct (trc_body T self (x :: G) k) eqn:Ek; [|discriminate].
    apply in_app_or in Hin. destruct Hin; [eapply (proj1 (trc_callees T self)); eassumption|eauto].
  - destruct (trc_expr T self G c) eqn:Ec; [|discriminate]. destruct (trc_body T self G th) eqn:Et; [|discriminate].
    destruct (trc_body T self G el) eqn:El; [|discriminate].
    apply in_app_or in Hin. destruct Hin as [Hin|Hin]; [eapply (proj1 (trc_callees T self)); eassumption|].
    apply in_app_or in Hin. destruct Hin; eauto.
Qed.

Lemma prog_order : forall P1 P0 T R, map fst T = rev (map cf_name P0) ->
  trc_prog_from T P1 = Some R ->
  length R = length P1 /\
  (NoDup (map cf_name P0) -> NoDup (map cf_name (P0 ++ P1))) /\
  forall i fn g, nth_error P1 i = Some fn -> In g (callees_b (cf_body fn)) ->
    g = cf_name fn \/ In g (map cf_name P0) \/ exists j gn, j < i /\ nth_error P1 j = Some gn /\ cf_name gn = g.
Proof.
  induction P1 as [|fn P1 IH]; intros P0 T R Hfst Htr; cbn [trc_prog_from] in Htr.
  - injection Htr as <-. split; [reflexivity|]. split; [rewrite app_nil_r; auto|]. intros [|i] ? ? H; discriminate H.
  - destruct (negb (smem (cf_name fn) (map fst T))) eqn:Enm; [|discriminate].
    destruct (trc_func T fn) as [v|] eqn:Ef; [|discriminate].
    destruct (trc_prog_from ((cf_name fn, v) :: T) P1) as [R'|] eqn:Er; [|discriminate]. injection Htr as <-.
    assert (Hfst' : map fst ((cf_name fn, v) :: T) = rev (map cf_name (P0 ++ [fn]))).
    { cbn [map fst]. rewrite map_app, rev_app_distr. cbn [map rev app]. rewrite Hfst. reflexivity. }
    destruct (IH (P0 ++ [fn]) _ _ Hfst' Er) as (Hlen & Hnd & Hcalls).
    assert (Hfresh : ~ In (cf_name fn) (map cf_name P0)).
    { intros Hin. apply in_rev in Hin. rewrite <- Hfst in Hin. apply smem_In in Hin. rewrite Hin in Enm. discriminate. }
    split; [cbn [length]; rewrite Hlen; reflexivity|]. split.
    + intros Hnd0. replace (P0 ++ fn :: P1) with ((P0 ++ [fn]) ++ P1) by (rewrite <- app_assoc; reflexivity).
      apply Hnd. rewrite map_app. cbn [map]. apply (NoDup_Add (Add_app _ _ [])). rewrite app_nil_r. auto.
    + intros [|i] f0 g Hn Hin; cbn [nth_error] in Hn.
      * injection Hn as <-. unfold trc_func in Ef.
        destruct (nodupb (cf_params fn) && negb (smem (cf_name fn) (cf_params fn))); [|discriminate].
        destruct (trc_body T (cf_name fn) (rev (cf_params fn)) (cf_body fn)) eqn:Eb; [|discriminate].
        destruct (trc_body_callees _ _ _ _ _ Eb g Hin) as [->|HinT]; [left; reflexivity|].
        right. left. rewrite Hfst in HinT. apply in_rev, HinT.
      * destruct (Hcalls i f0 g Hn Hin) as [->|[Hin0|(j & gn & Hj & Hnj & Hg)]]; [left; reflexivity| |].
        -- rewrite map_app in Hin0. apply in_app_or in Hin0. destruct Hin0 as [Hin0|[<-|[]]]; [right; left; exact Hin0|].
           right. right. exists 0, fn. split; [apply Nat.lt_0_succ|]. split; reflexivity.
        -- right. right. exists (S j), gn. split; [apply -> Nat.succ_lt_mono; exact Hj|]. split; assumption.
Qed.

Theorem accepted_in_dependency_order P vs : trc_prog P = Some vs ->
  length vs = length P /\ NoDup (map cf_name P) /\
  forall i fn g, nth_error P i = Some fn -> In g (callees_b (cf_body fn)) ->
    g = cf_name fn \/ exists j gn, j < i /\ nth_error P j = Some gn /\ cf_name gn = g.
Proof.
  unfold trc_prog. destruct (trc_prog_from [] P) as [R|] eqn:Er; [|discriminate]. cbn [option_map]. intros [= <-].
  destruct (prog_order P [] [] R eq_refl Er) as (Hlen & Hnd & Hcalls).
  split; [rewrite map_length; exact Hlen|]. split; [apply (Hnd (NoDup_nil _))|].
  intros i fn g Hn Hin. destruct (Hcalls i fn g Hn Hin) as [H|[[]|H]]; auto.
Qed.

(* ---------------------------------------------------------------- rejected or faithful *)
Theorem prog_rejected_or_faithful P :
  trc_prog P = None \/
  exists vs, trc_prog P = Some vs /\
    Forall2 (fun fn F => forall n args v s,
               length args = length (cf_params fn) ->
               cgo_body n P (rev (combine (cf_params fn) args)) (cf_body fn) = Some v ->
               evals (call_expr F args) s v s) P vs.
Proof.
  destruct (trc_prog P) as [vs|] eqn:E; [right|left; reflexivity].
  exists vs. split; [reflexivity|apply prog_correct, E].
Qed.

(* the refusals of the fragment: a parameter with the name of its function
   (the recursion binder would capture it), for any body and any other
   parameters; two functions of one name; a call of a function that is neither
   the one being defined nor emitted yet *)
Lemma rejects_param_named_like_function T name ps1 ps2 body :
  trc_func T {| cf_name := name; cf_params := ps1 ++ name :: ps2; cf_body := body |} = None.
Proof.
  unfold trc_func. cbn [cf_name cf_params].
  assert (H : smem name (ps1 ++ name :: ps2) = true).
  { apply smem_In, in_or_app. right. left. reflexivity. }
  rewrite H. cbn [negb]. rewrite andb_false_r. reflexivity.
Qed.

Lemma rejects_two_functions_of_one_name T fn P R :
  In (cf_name fn) (map fst T) -> trc_prog_from T (fn :: P) = R -> R = None.
Proof.
  intros Hin <-. cbn [trc_prog_from]. apply smem_In in Hin. rewrite Hin. reflexivity.
Qed.

Lemma rejects_call_of_unknown_function T self G f args :
  String.eqb f self = false -> flookup f T = None -> trc_expr T self G (CCall f args) = None.
Proof. intros Hs Hf. cbn [trc_expr]. rewrite Hs, Hf. destruct (smem f G); reflexivity. Qed.

(* ---------------------------------------------------------------- on the thread machine *)
(* the machine of C03 (Lang/GlConc.v; on one thread, with condition-variable
   waits as the sequential semantics executes them) runs the emitted call to
   the value Go returns *)
From GV Require Import Lang.GlMachineSeq.

Theorem prog_correct_on_the_machine P vs :
  trc_prog P = Some vs ->
  Forall2 (fun fn F => forall n args v s,
             length args = length (cf_params fn) ->
             cgo_body n P (rev (combine (cf_params fn) args)) (cf_body fn) = Some v ->
             exists k, mrun_seq k (call_expr F args) s = Some (v, s)) P vs.
Proof.
  intros Htr. refine (Forall2_weaken _ (prog_correct P vs Htr)).
  intros fn F H n args v s Hlen Hgo. destruct (H n args v s Hlen Hgo) as [m Hm].
  exact (eval_is_mrun_seq m _ _ _ _ Hm).
Qed.
