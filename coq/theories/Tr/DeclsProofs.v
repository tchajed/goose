From Coq Require Import String List Arith Bool Lia Relation_Operators.
From GV Require Import Tr.Decls.
Import ListNotations.

Lemma mem_natP x l : reflect (In x l) (mem_nat x l).
Proof.
  apply iff_reflect. unfold mem_nat. rewrite existsb_exists. split.
  - intros H. exists x. split; [exact H|apply Nat.eqb_refl].
  - intros (y & Hy & E). apply Nat.eqb_eq in E. subst. exact Hy.
Qed.

(* ---------------------------------------------------------------- folds over an optional state *)
(* Both loops of the model (over the names a declaration mentions, over the
   declarations of the package) are this fold; the proofs about the loops go
   through the two rules. *)
Section OFold.
Context {A St : Type} (F : A -> St -> option St).

Definition ofold (l : list A) (acc : option St) : option St :=
  fold_left (fun acc a => match acc with None => None | Some s => F a s end) l acc.

Lemma ofold_none l : ofold l None = None.
Proof. induction l; cbn; auto. Qed.

(* I holds between the steps; the step for a establishes Q a, later steps keep it *)
Lemma ofold_rule (I : St -> Prop) (Q : A -> St -> Prop) l :
  (forall a s s', In a l -> I s -> F a s = Some s' -> I s' /\ Q a s' /\ forall b, Q b s -> Q b s') ->
  forall s s', I s -> ofold l (Some s) = Some s' ->
  I s' /\ (forall a, In a l -> Q a s') /\ forall b, Q b s -> Q b s'.
Proof.
  induction l as [|a l IH]; intros Hstep s s' Hs Hf.
  - injection Hf as <-. split; [exact Hs|]. split; [intros a []|auto].
  - cbn in Hf. destruct (F a s) as [s1|] eqn:Ea; [|rewrite ofold_none in Hf; discriminate].
    destruct (Hstep a s s1 (or_introl eq_refl) Hs Ea) as (Hs1 & Hq & K1).
    destruct (IH (fun b t t' Hb => Hstep b t t' (or_intror Hb)) s1 s' Hs1 Hf) as (Hs' & Hall & K2).
    split; [exact Hs'|]. split; [intros b [<-|Hb]; auto|auto].
Qed.

Lemma ofold_total (I : St -> Prop) l :
  (forall a s, In a l -> I s -> exists s', F a s = Some s' /\ I s') ->
  forall s, I s -> exists s', ofold l (Some s) = Some s' /\ I s'.
Proof.
  induction l as [|a l IH]; intros Hstep s Hs; [exists s; auto|].
  destruct (Hstep a s (or_introl eq_refl) Hs) as (s1 & Ea & Hs1). cbn. rewrite Ea.
  apply (IH (fun b t Hb => Hstep b t (or_intror Hb)) s1 Hs1).
Qed.
End OFold.

Definition dep_step (f : nat) (ds : list decl) (dep : string) (st : list nat * list nat) :=
  match resolve ds dep with Some j => visit f ds j st | None => Some st end.

Lemma visit_deps_ofold f ds deps st : visit_deps f ds deps st = ofold (dep_step f ds) deps st.
Proof. reflexivity. Qed.

Lemma visit_S f ds id st :
  visit (S f) ds id st =
  if mem_nat id (fst st) then Some st
  else option_map (fun st' => (fst st', snd st' ++ [id]))
                  (visit_deps f ds (deps_of ds id) (Some (id :: fst st, snd st))).
Proof. cbn [visit]. destruct (mem_nat id (fst st)); [reflexivity|]. unfold visit_deps. destruct (fold_left _ _ _); reflexivity. Qed.

Lemma emit_all_ofold f ds : emit_all f ds = ofold (visit f ds) (seq 0 (length ds)) (Some ([], [])).
Proof. reflexivity. Qed.

(* ---------------------------------------------------------------- what one visit does *)
(* the state: fst = the declarations marked (processDecl entered), snd = the
   declarations emitted, in order.  gray = entered and not yet emitted: the
   declarations on the recursion stack. *)
Definition gray (st : list nat * list nat) (g : nat) : Prop := In g (fst st) /\ ~ In g (snd st).

Definition wf (st : list nat * list nat) : Prop := incl (snd st) (fst st) /\ NoDup (snd st).

Lemma wf_mark id st : wf st -> wf (id :: fst st, snd st).
Proof. intros [Hi Hn]. split; [intros x Hx; right; apply Hi, Hx|exact Hn]. Qed.

Lemma emitted_or_gray st x : In x (fst st) -> In x (snd st) \/ gray st x.
Proof. intros H. destruct (in_dec Nat.eq_dec x (snd st)); [left|right; split]; assumption. Qed.

(* the two changes a visit makes to the stack: marking puts id on it, emitting
   takes it off *)
Lemma gray_mark id st g : wf st -> ~ In id (fst st) -> (gray (id :: fst st, snd st) g <-> g = id \/ gray st g).
Proof.
  intros [Hi _] Hid. unfold gray. cbn [fst snd In]. split.
  - intros [[<-|H] Hn]; auto.
  - intros [->|[H Hn]]; [split; [left; reflexivity|intros Hc; apply Hid, Hi, Hc]|auto].
Qed.

Lemma gray_emit id st g : gray (fst st, snd st ++ [id]) g <-> gray st g /\ g <> id.
Proof.
  unfold gray. cbn [fst snd]. rewrite in_app_iff. cbn [In]. split.
  - intros [H Hn]. split; [split; [exact H|auto]|]. intros ->. apply Hn. right; left; reflexivity.
  - intros [[H Hn] Hne]. split; [exact H|]. intros [Hc|[Hc|[]]]; [exact (Hn Hc)|exact (Hne (eq_sym Hc))].
Qed.

(* what a visit does, whatever the dependency graph: it adds to the emitted
   declarations and leaves the recursion stack as it was *)
Definition extends (st st' : list nat * list nat) : Prop :=
  incl (snd st) (snd st') /\ forall g, gray st' g <-> gray st g.

Lemma extends_refl st : extends st st.
Proof. split; [apply incl_refl|reflexivity]. Qed.

Lemma extends_trans a b c : extends a b -> extends b c -> extends a c.
Proof. intros [I1 G1] [I2 G2]. split; [exact (incl_tran I1 I2)|intros g; rewrite G2; apply G1]. Qed.

Lemma visit_step : forall f ds id st st',
  visit f ds id st = Some st' -> wf st -> wf st' /\ extends st st' /\ In id (fst st').
Proof.
  induction f as [|f IH]; intros ds id st st' Hv Hwf; [discriminate|].
  rewrite visit_S, visit_deps_ofold in Hv. destruct (mem_natP id (fst st)) as [Hin|Hnin].
  - injection Hv as <-. auto using extends_refl.
  - destruct (ofold _ _ _) as [st1|] eqn:Ed; [|discriminate]. injection Hv as <-.
    (* id is on the stack during the loop over the names it mentions *)
    apply (ofold_rule _ (fun s => wf s /\ extends (id :: fst st, snd st) s) (fun _ _ => True)) in Ed as ([[I1 N1] [I2 G]] & _).
    + destruct (proj2 (G id)) as [Hid Hne]; [apply gray_mark; auto|].
      split; [split; cbn [fst snd]|split; [split; cbn [snd]|exact Hid]].
      * apply incl_app; [exact I1|]. intros x [<-|[]]. exact Hid.
      * apply (NoDup_Add (Add_app id (snd st1) [])). rewrite app_nil_r. auto.
      * apply incl_appl, I2.
      * intros g. rewrite gray_emit, G, gray_mark by assumption. split; [intros [[->|H] Hg]; [contradiction|exact H]|].
        intros H. split; [auto|]. intros ->. exact (Hnin (proj1 H)).
    + intros dep s s' _ [Hs Hx] Hd. split; [|auto]. unfold dep_step in Hd.
      destruct (resolve ds dep) as [j|]; [|injection Hd as <-; auto].
      destruct (IH _ _ _ _ Hd Hs) as (Hs' & Hx' & _). eauto using extends_trans.
    + split; [apply wf_mark, Hwf|apply extends_refl].
Qed.

(* ---------------------------------------------------------------- once each, defined before use *)
Definition edge (ds : list decl) (id j : nat) : Prop :=
  exists dep, In dep (deps_of ds id) /\ resolve ds dep = Some j /\ j <> id.

(* the dependency graph is acyclic: some rank decreases along every edge *)
Definition acyclic (ds : list decl) (rk : nat -> nat) : Prop := forall id j, edge ds id j -> rk j < rk id.

(* in any graph: a declaration that another one mentions comes before it, or
   the two lie on a cycle *)
Definition closed_before (ds : list decl) (out : list nat) : Prop :=
  forall pre id post, out = pre ++ id :: post ->
  forall j, edge ds id j -> In j pre \/ clos_trans nat (edge ds) j id.

Lemma closed_before_snoc ds out id :
  closed_before ds out -> (forall j, edge ds id j -> In j out \/ clos_trans nat (edge ds) j id) ->
  closed_before ds (out ++ [id]).
Proof.
  intros Hc Hid pre x post Heq j He. induction post as [|y post _] using rev_ind.
  - apply app_inj_tail in Heq as [-> ->]. apply Hid, He.
  - rewrite app_comm_cons, app_assoc in Heq. apply app_inj_tail in Heq as [-> _]. eapply Hc; [reflexivity|exact He].
Qed.

(* every declaration on the recursion stack is the one being visited or reaches
   it; so a mentioned declaration that is still on the stack when the one that
   mentions it is emitted closes a cycle *)
Lemma visit_order ds : forall f id st st',
  visit f ds id st = Some st' -> wf st -> closed_before ds (snd st) ->
  (forall g, gray st g -> g = id \/ clos_trans nat (edge ds) g id) ->
  closed_before ds (snd st').
Proof.
  induction f as [|f IH]; intros id st st' Hv Hwf Hcb Hgr; [discriminate|].
  rewrite visit_S, visit_deps_ofold in Hv. destruct (mem_natP id (fst st)) as [Hin|Hnin]; [injection Hv as <-; exact Hcb|].
  destruct (ofold _ _ _) as [st1|] eqn:Ed; [|discriminate]. injection Hv as <-. cbn [snd].
  apply (ofold_rule _ (fun s => wf s /\ closed_before ds (snd s) /\
                                forall g, gray s g -> g = id \/ clos_trans nat (edge ds) g id)
                      (fun dep s => forall j, resolve ds dep = Some j -> j <> id -> In j (snd s) \/ clos_trans nat (edge ds) j id))
    in Ed as ((_ & A & _) & B & _).
  - apply closed_before_snoc; [exact A|]. intros j (dep & Hd & Hr & Hn). eapply B; eauto.
  - intros dep s s' Hdep (Hs & Hc & Hg) Hd. unfold dep_step in Hd. destruct (resolve ds dep) as [j|] eqn:Er.
    2:{ injection Hd as <-. split; [auto|]. split; [discriminate|auto]. }
    destruct (visit_step _ _ _ _ _ Hd Hs) as (Hs' & Hx & Hj).
    assert (Hg' : forall g, gray s' g -> g = id \/ clos_trans nat (edge ds) g id) by (intros g Hgg; apply Hg, Hx, Hgg).
    split; [|split].
    + split; [exact Hs'|]. split; [|exact Hg'].
      apply (IH _ _ _ Hd Hs Hc). intros g Hgg. destruct (Nat.eq_dec j id) as [->|Hne]; [auto|right].
      assert (He : edge ds id j) by (exists dep; auto).
      destruct (Hg g Hgg) as [->|Hp]; [apply t_step, He|exact (t_trans _ _ _ _ _ Hp (t_step _ _ _ _ He))].
    + (* j is marked after its visit: it has been emitted, or it is on the stack *)
      intros j' [= <-] Hne. destruct (emitted_or_gray _ _ Hj) as [He|He]; [left; exact He|right].
      destruct (Hg' j He) as [->|Hp]; [contradiction|exact Hp].
    + intros b Hb j' Hr' Hn'. destruct (Hb j' Hr' Hn'); [left; apply Hx; assumption|auto].
  - split; [apply wf_mark, Hwf|]. split; [exact Hcb|].
    intros g Hg. apply gray_mark in Hg as [->|Hg]; auto.
Qed.

(* the main loop: between two of its visits the stack is empty *)
Lemma emit_order_spec ds order : emit_order ds = Some order ->
  NoDup order /\ (forall id, id < length ds -> In id order) /\ closed_before ds order.
Proof.
  unfold emit_order. rewrite emit_all_ofold. destruct (ofold _ _ _) as [[gen out]|] eqn:H; [|discriminate]. intros [= <-].
  apply (ofold_rule _ (fun s => wf s /\ (forall g, ~ gray s g) /\ closed_before ds (snd s)) (fun id s => In id (snd s)))
    in H as (([_ N] & _ & C) & E & _).
  - split; [exact N|]. split; [|exact C]. intros id Hid. apply E, in_seq. lia.
  - intros id s s' _ (Hs & Hg & Hc) Hv. destruct (visit_step _ _ _ _ _ Hv Hs) as (Hs' & [I2 G] & Hin).
    assert (Hg' : forall g, ~ gray s' g) by (intros g; rewrite G; apply Hg).
    split; [|split; [|exact I2]].
    + split; [exact Hs'|]. split; [exact Hg'|]. eapply visit_order; eauto. intros g Hgg. destruct (Hg g Hgg).
    + destruct (emitted_or_gray _ _ Hin) as [He|He]; [exact He|destruct (Hg' _ He)].
  - split; [split; [apply incl_refl|apply NoDup_nil]|]. split; [intros g [[] _]|].
    (* nothing stands in the empty order *)
    intros [|? ?] ? ? [=].
Qed.

(* every declaration is emitted, and emitted once *)
Theorem emitted_once ds order :
  emit_order ds = Some order ->
  NoDup order /\ forall id, id < length ds -> In id order.
Proof. intros H. split; apply (emit_order_spec ds order H). Qed.

Theorem mentioned_before_or_on_a_cycle ds order : emit_order ds = Some order -> closed_before ds order.
Proof. intros H. apply (emit_order_spec ds order H). Qed.

(* when the dependency graph is acyclic, a declaration comes after every other
   declaration it mentions *)
Theorem defined_before_use ds rk order :
  acyclic ds rk -> emit_order ds = Some order ->
  forall pre id post, order = pre ++ id :: post -> forall j, edge ds id j -> In j pre.
Proof.
  intros Hac H pre id post E j He.
  destruct (mentioned_before_or_on_a_cycle ds order H pre id post E j He) as [Hin|Hp]; [exact Hin|].
  (* the rank goes up along a path back *)
  assert (rk id < rk j) by (clear -Hac Hp; induction Hp; [apply Hac; assumption|lia]).
  specialize (Hac id j He). lia.
Qed.

(* an example: three declarations written in reverse dependency order *)
Example order_example :
  emit_order [ {| d_names := ["f"%string]; d_deps := ["g"%string; "T"%string] |};
               {| d_names := ["g"%string]; d_deps := ["T"%string; "g"%string] |};
               {| d_names := ["T"%string]; d_deps := [] |} ] = Some [2; 1; 0].
Proof. vm_compute. reflexivity. Qed.

(* ---------------------------------------------------------------- errors *)
Lemma existsb_false {A} (f : A -> bool) l : existsb f l = false <-> forall x, In x l -> f x = false.
Proof.
  rewrite <- not_true_iff_false, existsb_exists. split.
  - intros H x Hx. apply not_true_iff_false. intros E. apply H. eauto.
  - intros H (x & Hx & E). rewrite (H x Hx) in E. discriminate.
Qed.

Section Errors.
Variables X E : Type.

(* without a foreign panic the translation of a package ends with the
   definitions of every declaration that translated and one error per
   declaration that did not, in source order *)
Theorem no_crash_gives_result (rs : list (tres X E)) :
  (forall r, In r rs -> is_crash r = false) ->
  exists groups errs, translate_decls rs = Some (groups, errs) /\
    length groups = length rs /\
    (forall i r, nth_error rs i = Some r -> nth_error groups i = Some (defs_of r)) /\
    length errs = length (filter (fun r => match r with TErr _ => true | _ => false end) rs).
Proof.
  intros Hn. unfold translate_decls. rewrite (proj2 (existsb_false _ _) Hn).
  eexists _, _. split; [reflexivity|]. split; [apply map_length|]. split.
  - intros i r H. rewrite nth_error_map, H. reflexivity.
  - clear. induction rs as [|[d|e|] rs' IH]; cbn; auto.
Qed.

(* an error in one declaration does not stop the others: what declaration i
   contributes depends on declaration i alone *)
Theorem declarations_independent (rs1 rs2 : list (tres X E)) g1 e1 g2 e2 i :
  translate_decls rs1 = Some (g1, e1) -> translate_decls rs2 = Some (g2, e2) ->
  nth_error rs1 i = nth_error rs2 i -> nth_error g1 i = nth_error g2 i.
Proof.
  unfold translate_decls. destruct (existsb is_crash rs1); [discriminate|]. destruct (existsb is_crash rs2); [discriminate|].
  intros [= <- _] [= <- _] H. rewrite !nth_error_map, H. reflexivity.
Qed.

(* success (exit status 0) exactly when every declaration translated *)
Theorem no_errors_iff_all_ok (rs : list (tres X E)) g e :
  translate_decls rs = Some (g, e) -> (e = [] <-> forall r, In r rs -> exists d, r = TOk d).
Proof.
  unfold translate_decls. destruct (existsb is_crash rs) eqn:Ex; [discriminate|]. intros [= _ <-].
  rewrite flat_map_concat_map, concat_nil_Forall, Forall_map, Forall_forall.
  split; intros H r Hr; specialize (H r Hr).
  - destruct r as [d|err|]; [eauto|discriminate|]. discriminate (proj1 (existsb_false _ _) Ex _ Hr).
  - destruct H as [d ->]. reflexivity.
Qed.
End Errors.

(* ---------------------------------------------------------------- the fuel suffices *)
Lemma resolve_from_lt ds n : forall i acc j,
  (forall k, acc = Some k -> k < i + length ds) ->
  resolve_from i ds n acc = Some j -> j < i + length ds.
Proof.
  induction ds as [|d ds IH]; cbn [resolve_from length]; intros i acc j Hacc H.
  - apply Hacc, H.
  - replace (i + S (length ds)) with (S i + length ds) by lia. eapply IH; [|exact H].
    intros k Hk. destruct (mem_str n (d_names d)); [injection Hk as <-; lia|]. specialize (Hacc k Hk). lia.
Qed.

Lemma resolve_lt ds n j : resolve ds n = Some j -> j < length ds.
Proof. unfold resolve. intros H. apply (resolve_from_lt ds n 0 None j); [discriminate|exact H]. Qed.

(* a state that f more levels of recursion cannot exhaust: the marked
   declarations are distinct, and more than N - f of the N are marked *)
Definition room (N f : nat) (st : list nat * list nat) : Prop :=
  NoDup (fst st) /\ (forall x, In x (fst st) -> x < N) /\ N < f + length (fst st).

Lemma visit_terminates ds : forall f id st,
  id < length ds -> room (length ds) f st ->
  exists st', visit f ds id st = Some st' /\ room (length ds) f st'.
Proof.
  induction f as [|f IH]; intros id st Hid (Hn & Hb & Hf).
  - (* no more marked declarations than declarations *)
    exfalso. assert (length (fst st) <= length (seq 0 (length ds))); [|rewrite seq_length in *; lia].
    apply NoDup_incl_length; [exact Hn|]. intros x Hx. apply in_seq. specialize (Hb x Hx). lia.
  - rewrite visit_S, visit_deps_ofold. destruct (mem_natP id (fst st)) as [Hin|Hnin]; [exists st; repeat split; auto|].
    destruct (ofold_total (dep_step f ds) (room (length ds) f) (deps_of ds id)) with (s := (id :: fst st, snd st))
      as (s1 & -> & N1 & B1 & F1).
    + intros dep s _ Hr. unfold dep_step. destruct (resolve ds dep) as [j|] eqn:Er; [|eauto].
      apply IH; [exact (resolve_lt _ _ _ Er)|exact Hr].
    + repeat split; cbn [fst length]; [constructor; assumption|intros x [<-|Hx]; auto|lia].
    + eexists. split; [reflexivity|]. repeat split; cbn [fst]; auto; lia.
Qed.

(* the emission never runs out of fuel: emit_order is total *)
Theorem emit_order_total ds : exists order, emit_order ds = Some order.
Proof.
  unfold emit_order. rewrite emit_all_ofold.
  destruct (ofold_total (visit (S (length ds)) ds) (room (length ds) (S (length ds))) (seq 0 (length ds))) with (s := ([] : list nat, [] : list nat))
    as (st' & -> & _).
  - intros id s Hid Hr. apply in_seq in Hid. apply visit_terminates; [lia|exact Hr].
  - repeat split; cbn; [apply NoDup_nil|intros x []|lia].
  - eexists. reflexivity.
Qed.
