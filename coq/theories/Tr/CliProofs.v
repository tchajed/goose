From Coq Require Import String Ascii List Bool Arith.
From GV Require Import Tr.Header Tr.Cli.
Import ListNotations.
Open Scope string_scope.

(* exit status 0 exactly when every matched package translated without error *)
Theorem cli_exit ig out ex rs : fst (cli false ig out ex rs) = 0 <-> forall pr, In pr rs -> is_ok (snd pr) = true.
Proof.
  unfold cli. cbn [fst]. rewrite <- (forallb_forall (fun pr => is_ok (snd pr))).
  destruct (forallb _ rs); split; congruence.
Qed.

Theorem cli_pattern_error ig out ex rs : cli true ig out ex rs = (1, []).
Proof. reflexivity. Qed.

Lemma In_write_if_changed ex name data w :
  In w (write_if_changed ex name data) <-> w = {| w_path := name; w_data := data |} /\ ex name <> Some data.
Proof.
  unfold write_if_changed. destruct (ex name) as [c|]; [destruct (String.eqb_spec c data) as [->|Hne]|]; cbn [In].
  - split; [intros []|intros [_ H]; now apply H].
  - split; [intros [<-|[]]; split; congruence|intros [-> _]; now left].
  - split; [intros [<-|[]]; split; congruence|intros [-> _]; now left].
Qed.

(* what is written: for a translated package one write of its file at its
   path unless the file already has these contents; for a package with an error
   nothing unless -ignore-errors, and then the partial file *)
Theorem cli_writes ig out ex rs w :
  In w (snd (cli false ig out ex rs)) <->
  exists pkg r, In (pkg, r) rs /\ (is_ok r = true \/ ig = true) /\
                w = {| w_path := out_file out pkg; w_data := contents r |} /\ ex (out_file out pkg) <> Some (contents r).
Proof.
  unfold cli. cbn [snd]. rewrite in_flat_map. unfold writes_for. split.
  - intros ([pkg r] & Hin & Hw). exists pkg, r. destruct (is_ok r || ig) eqn:E; [|destruct Hw].
    apply orb_true_iff in E. apply In_write_if_changed in Hw. auto.
  - intros (pkg & r & Hin & Hor & Hw). exists (pkg, r). split; [exact Hin|].
    apply orb_true_iff in Hor. rewrite Hor. apply In_write_if_changed, Hw.
Qed.

(* a file whose contents would not change is not rewritten *)
Theorem cli_unchanged_not_rewritten ig out ex rs pkg r :
  ex (out_file out pkg) = Some (contents r) ->
  (forall pkg' r', In (pkg', r') rs -> out_file out pkg' = out_file out pkg -> contents r' = contents r) ->
  forall w, In w (snd (cli false ig out ex rs)) -> w_path w <> out_file out pkg.
Proof.
  intros Hex Huniq w Hw E. apply cli_writes in Hw as (pkg' & r' & Hin' & _ & -> & Hne).
  cbn [w_path] in E. apply Hne. rewrite E, Hex. f_equal. symmetry. eapply Huniq; eauto.
Qed.

(* without -ignore-errors every write comes from a package that translated without error *)
Theorem cli_errors_not_written out ex rs w :
  In w (snd (cli false false out ex rs)) ->
  exists pkg c, In (pkg, ROk c) rs /\ w = {| w_path := out_file out pkg; w_data := c |}.
Proof.
  intros Hw. apply cli_writes in Hw as (pkg & r & Hin & [Hok|Hig] & -> & _); [|discriminate].
  destruct r as [c|c]; [|discriminate]. exists pkg, c. auto.
Qed.

Lemma map_string_inj f : (forall a b, f a = f b -> a = b) -> forall s t, map_string f s = map_string f t -> s = t.
Proof.
  intros Hf s. induction s as [|a s IH]; intros [|b t] H; cbn in H; try discriminate; [reflexivity|].
  injection H as H1 H2. f_equal; auto.
Qed.

Definition plain_char (c : Ascii.ascii) : bool := negb (Ascii.eqb c "."%char || Ascii.eqb c "-"%char)%bool.
Fixpoint plain (s : string) : bool := match s with EmptyString => true | String c s' => plain_char c && plain s' end.

Lemma path_to_coq_path_plain s : plain s = true -> path_to_coq_path s = s.
Proof.
  induction s as [|c s IH]; intros H; [reflexivity|]. cbn in H. apply andb_prop in H as [Hc Hs].
  unfold path_to_coq_path in *. cbn [map_string]. rewrite IH by exact Hs. f_equal.
  unfold map_char. unfold plain_char in Hc. apply negb_true_iff in Hc. now rewrite Hc.
Qed.

Lemma length_append (a b : string) : String.length (a ++ b) = String.length a + String.length b.
Proof. induction a as [|x a IH]; cbn; [reflexivity|now rewrite IH]. Qed.

Lemma append_inv_head (a x y : string) : a ++ x = a ++ y -> x = y.
Proof. induction a as [|c a IH]; cbn; intros H; [exact H|]. injection H as H. auto. Qed.

Lemma append_inv_tail (x y c : string) : x ++ c = y ++ c -> x = y.
Proof.
  intros H. assert (L : String.length x = String.length y).
  { apply (f_equal String.length) in H. rewrite !length_append in H. now apply Nat.add_cancel_r in H. }
  revert y H L. induction x as [|a x IH]; intros [|b y] H L; try discriminate L; [reflexivity|].
  injection H as -> H. injection L as L. f_equal. now apply IH.
Qed.

(* distinct package paths without '.'/'-' vs '_' clashes are written to distinct files *)
Theorem cli_paths_injective_partial out p q : plain p = true -> plain q = true ->
  out_file out p = out_file out q -> p = q.
Proof.
  unfold out_file, output_path. intros Hp Hq. rewrite !path_to_coq_path_plain by assumption.
  intros H. apply append_inv_head in H. apply append_inv_head in H. now apply append_inv_tail in H.
Qed.
