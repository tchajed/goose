(* Preservation for MiniGoL: loops with break/continue, conditionals, early
   returns and nested blocks.  The statement is generalised over the
   continuation k that trl splices after a nested block that is printed
   without delimiters. *)
From Coq Require Import List Bool.
From GV Require Import Lang.GlSyntax Lang.GlSem Tr.MiniGo Tr.MiniGoProofs Tr.MiniGoL Tr.MiniGoLProofs.
Import ListNotations.
Local Open Scope nat_scope.

(* the continuation does not mention the names the statements declare *)
Definition kok (b : lblock) (k : option expr) : Prop :=
  forall kr, k = Some kr -> forall y, In y (names_block b) -> nofree y kr.

(* The list ran to its end.  Without continuation, e has evaluated to the value
   the usage asks for; with a continuation kr spliced after the list, e goes on
   as kr does from the store the list left. *)
Definition normal_k (u : lusage) (k : option expr) (e : expr) (r : genv) (s s' : state) : Prop :=
  match k with
  | None => exists w, evals (close (cs_of r) e) s w s' /\ (u = UReturned -> w = vunit) /\ (u = ULoop -> w = vbool true)
  | Some kr => forall wk sk, evals (close (cs_of r) kr) s' wk sk -> evals (close (cs_of r) e) s wk sk
  end.

Definition lpostk (u : lusage) (k : option expr) (e : expr) (r : genv) (s : state) (o : lout) : Prop :=
  match o with
  | LRet v s' => u = UReturned /\ evals (close (cs_of r) e) s v s'
  | LNormal _ s' => cells_kept s s' /\ normal_k u k e r s s'
  | LBrk s' => u = ULoop /\ cells_kept s s' /\ evals (close (cs_of r) e) s (vbool false) s'
  | LCont s' => u = ULoop /\ cells_kept s s' /\ evals (close (cs_of r) e) s (vbool true) s'
  | LErr | LFuelOut => True
  end.

Lemma lpostk_none u e r s o : lpostk u None e r s o <-> lpost u e r s o.
Proof. destruct o; cbn [lpostk lpost normal_k]; tauto. Qed.

(* The one rule all others come from: e, started in s under r, first takes
   steps that lead to e2 in s1 under r1 (which may bind more names, none of
   them mentioned by the continuation). *)
Lemma lpostk_steps u k e e2 r r1 s s1 o :
  cells_kept s s1 ->
  (forall w s', evals (close (cs_of r1) e2) s1 w s' -> evals (close (cs_of r) e) s w s') ->
  (forall kr, k = Some kr -> close (cs_of r1) kr = close (cs_of r) kr) ->
  lpostk u k e2 r1 s1 o -> lpostk u k e r s o.
Proof.
  intros Hk Hev Hkr Hp. destruct o as [r' s'|v s'|s'|s'| |]; cbn [lpostk] in *; auto.
  - destruct Hp as [Hk' Hn]. split; [eapply cells_kept_trans; eauto|].
    destruct k as [kr|]; cbn [normal_k] in *.
    + intros wk sk Hw. apply Hev, Hn. rewrite (Hkr kr eq_refl). exact Hw.
    + destruct Hn as (w & Hw & Hu). eauto.
  - destruct Hp as [Hu Hw]. auto.
  - destruct Hp as (Hu & Hk' & Hw). eauto using cells_kept_trans.
  - destruct Hp as (Hu & Hk' & Hw). eauto using cells_kept_trans.
Qed.

Lemma lpostk_letin u k x e1 e2 r s v1 r1 s1 o :
  evals (close (cs_of r) e1) s v1 s1 -> cs_of r1 = bind x v1 (cs_of r) -> cells_kept s s1 ->
  (forall kr y, k = Some kr -> x = BNamed y -> nofree y kr) ->
  lpostk u k e2 r1 s1 o -> lpostk u k (LetIn x e1 e2) r s o.
Proof.
  intros H1 Hcs Hk Hfree. apply lpostk_steps; [exact Hk| |].
  - intros w s' Hw. eapply evals_close_letin; [exact H1|]. rewrite <- Hcs. exact Hw.
  - intros kr Hkr. rewrite Hcs. destruct x as [|y]; cbn [bind close]; [reflexivity|].
    rewrite (Hfree kr y Hkr eq_refl). reflexivity.
Qed.

Lemma lpostk_seq u k X a r s w s1 o :
  evals (close (cs_of r) X) s w s1 -> cells_kept s s1 -> lpostk u k a r s1 o -> lpostk u k (Seq X a) r s o.
Proof. intros H Hk. apply (lpostk_letin u k BAnon X a r s w r s1); auto. discriminate. Qed.

Lemma lpostk_if u k c' (cb : bool) t' e' r s o :
  evals (close (cs_of r) c') s (vbool cb) s ->
  lpostk u k (if cb then t' else e') r s o -> lpostk u k (If c' t' e') r s o.
Proof.
  intros Hc. apply lpostk_steps; [apply cells_kept_refl| |reflexivity].
  intros w s' Hw. rewrite close_if. eapply evals_if; [exact Hc|]. destruct cb; exact Hw.
Qed.

Lemma lpostk_drop_binding u k a i bnd r s o :
  nofree i a -> (forall kr, k = Some kr -> nofree i kr) ->
  lpostk u k a r s o -> lpostk u k a ((i, bnd) :: r) s o.
Proof.
  intros Hn Hkn. apply lpostk_steps; [apply cells_kept_refl| |].
  - intros w s'. cbn [cs_of map fst snd close]. rewrite Hn. auto.
  - intros kr Hkr. cbn [cs_of map fst snd close]. rewrite (Hkn kr Hkr). reflexivity.
Qed.

(* a delimited expression X that ran to its end, followed by the continuation *)
Lemma lpostk_then_k u (k : option expr) X r s w r' s1 :
  evals (close (cs_of r) X) s w s1 -> cells_kept s s1 ->
  (k = None -> (u = UReturned -> w = vunit) /\ (u = ULoop -> w = vbool true)) ->
  lpostk u k (then_k X k) r s (LNormal r' s1).
Proof.
  intros H Hk Hw. cbn [lpostk]. split; [exact Hk|]. destruct k as [kr|]; cbn [normal_k then_k].
  - intros wk sk Hkr. unfold Seq. eapply evals_close_letin; [exact H|]. cbn [bind]. exact Hkr.
  - exists w. split; [exact H|]. apply Hw. reflexivity.
Qed.

(* what trl emits for the empty list, run from s *)
Lemma lpostk_nil u k r s r' :
  lpostk u k (then_k (match final_of u with Some e => e | None => UnitE end) k) r s (LNormal r' s).
Proof.
  apply lpostk_then_k with (w := match u with ULoop => vbool true | _ => vunit end).
  - destruct u; apply evals_close_val.
  - apply cells_kept_refl.
  - intros _. destruct u; split; congruence.
Qed.

Lemma lpostk_final u fin r s r' : final_of u = Some fin -> lpostk u None fin r s (LNormal r' s).
Proof. intros Hf. pose proof (lpostk_nil u None r s r') as H. rewrite Hf in H. exact H. Qed.

(* how lgo continues after a statement that contains statements *)
Definition seq_out (o1 : lout) (o2 : state -> lout) : lout :=
  match o1 with
  | LNormal _ s2 => o2 s2
  | LRet v s0 => LRet v s0 | LBrk s0 => LBrk s0 | LCont s0 => LCont s0 | LErr => LErr | LFuelOut => LFuelOut
  end.

Lemma lgo_if n r s c th el rest : lgo (S n) r s (LCons (LIf c th el) rest) =
  match go_expr r s c with
  | Some (LitV (LitBool cb)) => seq_out (lgo n r s (if cb then th else lblock_of el)) (fun s' => lgo n r s' rest)
  | _ => LErr
  end.
Proof. reflexivity. Qed.

Lemma lgo_block n r s inner rest :
  lgo (S n) r s (LCons (LBlock inner) rest) = seq_out (lgo n r s inner) (fun s' => lgo n r s' rest).
Proof. reflexivity. Qed.

Lemma lgo_for n r s init cond post body rest : lgo (S n) r s (LCons (LFor init cond post body) rest) =
  match (match init with
         | Some (i, e) => match go_expr r s e with
                          | Some v => let '(b, s1) := alloc_cell v s in Some ((i, Cell b) :: r, s1)
                          | None => None
                          end
         | None => Some (r, s)
         end) with
  | Some (r1, s1) => seq_out (lloop n r1 s1 cond post body) (fun s2 => lgo n r s2 rest)
  | None => LErr
  end.
Proof. reflexivity. Qed.

(* Sequencing as lgo does it: a first part under local usage whose normal end
   hands over to a, the text spliced after it; any other end is final (and,
   under local usage, cannot be a return, break or continue). *)
Lemma lpostk_splice u k e a r s o1 (o2 : state -> lout) :
  lpostk ULocal (Some a) e r s o1 ->
  (forall s2, cells_kept s s2 -> lpostk u k a r s2 (o2 s2)) ->
  lpostk u k e r s (seq_out o1 o2).
Proof.
  intros H1 H2. destruct o1 as [r2 s2|v s2|s2|s2| |]; cbn [lpostk] in H1; try exact I.
  - destruct H1 as [Hk Hn]. eapply lpostk_steps; [exact Hk|exact Hn|reflexivity|]. apply H2, Hk.
  - destruct H1 as [Hu _]. discriminate.
  - destruct H1 as [Hu _]. discriminate.
  - destruct H1 as [Hu _]. discriminate.
Qed.

(* ... and whatever its outcome: "X;; kr" splices kr after it; there is a
   continuation under local usage only *)
Lemma lpostk_delimit u k X r s o1 :
  (k <> None -> u = ULocal) -> lpostk u None X r s o1 -> lpostk u k (then_k X k) r s o1.
Proof.
  destruct k as [kr|]; [|exact (fun _ H => H)]. intros Hu. rewrite Hu by discriminate.
  destruct o1 as [r2 s2|v s2|s2|s2| |]; cbn [lpostk]; try exact (fun H => H); try (intros [Hu' _]; discriminate).
  intros [Hk (w & Hw & _)]. apply (lpostk_then_k ULocal (Some kr) X r s w r2 s2 Hw Hk). discriminate.
Qed.

Lemma lpostk_then u k X a r s o1 (o2 : state -> lout) :
  lpostk ULocal None X r s o1 ->
  (forall s2, cells_kept s s2 -> lpostk u k a r s2 (o2 s2)) ->
  lpostk u k (Seq X a) r s (seq_out o1 o2).
Proof. intros H1. apply (lpostk_splice u k (Seq X a) a). apply (lpostk_delimit ULocal (Some a)); [reflexivity|exact H1]. Qed.

Lemma lpostk_last n u k e r s r' o1 :
  lpostk u k e r s o1 -> lpostk u k e r s (seq_out o1 (fun s2 => lgo n r' s2 LNil)).
Proof.
  intros H. destruct o1 as [r2 s2|v s2|s2|s2| |]; try exact H. cbn [seq_out]. rewrite lgo_nil. destruct n; [exact I|exact H].
Qed.

Lemma kok_cons_rest st rest k : kok (LCons st rest) k -> kok rest k.
Proof. intros H kr Hk y Hy. apply (H kr Hk). cbn [names_block]. apply in_or_app. right; exact Hy. Qed.

Lemma kok_cons_head st rest k kr y : kok (LCons st rest) k -> k = Some kr -> In y (names_stmt st) -> nofree y kr.
Proof. intros H Hk Hy. apply (H kr Hk). cbn [names_block]. apply in_or_app. left; exact Hy. Qed.

Lemma kok_none b : kok b None.
Proof. intros kr H. discriminate. Qed.

Lemma simple_binder_name G g x e G' y : tr_simple G g = Some (x, e, G') -> x = BNamed y -> In y (simple_names g).
Proof.
  destruct g as [z e0|z t [e0|]|z e0|op z e0|inc z|c th el|e0]; cbn [tr_simple simple_names]; intros H Hx; try discriminate.
  - destruct (tr_expr G e0); [|discriminate]. injection H as <- _ _. injection Hx as <-. left; reflexivity.
  - destruct (tr_expr G e0); [|discriminate]. injection H as <- _ _. injection Hx as <-. left; reflexivity.
  - injection H as <- _ _. injection Hx as <-. left; reflexivity.
  - destruct (tlookup z G) as [[[] ?]|]; try discriminate. destruct (tr_expr G e0); [|discriminate]. injection H as <- _ _. discriminate.
  - destruct (tlookup z G) as [[[] ?]|]; try discriminate. destruct (tr_expr G e0); [|discriminate].
    destruct (assign_op op); [|discriminate]. destruct (tr_binop op _ _); [|discriminate]. injection H as <- _ _. discriminate.
  - destruct (tlookup z G) as [[[] ?]|]; try discriminate. injection H as <- _ _. discriminate.
Qed.

Definition Q_lgo (n : nat) : Prop := forall tf G u b k e r s,
  trl tf G u b k = Some e -> agree G r s -> (k <> None -> u = ULocal) -> kok b k ->
  lpostk u k e r s (lgo n r s b).

Lemma final_of_local_k {u} {k : option expr} {fin} : (k <> None -> u = ULocal) -> final_of u = Some fin -> k = None.
Proof. intros H Hf. destruct k; [|reflexivity]. rewrite H in Hf by discriminate. discriminate. Qed.

Definition Q_lloop (n : nat) : Prop := forall tf G1 r1 s1 cond post body c' p' b',
  (match cond with Some c => tr_expr G1 c | None => Some (BoolE true) end) = Some c' ->
  (match post with Some g => match tr_simple G1 g with Some (BAnon, e, _) => Some e | _ => None end | None => Some SkipE end) = Some p' ->
  trl tf G1 ULoop body None = Some b' -> agree G1 r1 s1 ->
  match lloop n r1 s1 cond post body with
  | LNormal _ s2 => cells_kept s1 s2 /\ evals (loop_expr (cs_of r1) c' b' p') s1 vunit s2
  | LRet _ _ | LBrk _ | LCont _ => False
  | LErr | LFuelOut => True
  end.

Lemma loop_step n : Q_lgo n -> Q_lloop n -> Q_lloop (S n).
Proof.
  intros Hgo Hloop tf G1 r1 s1 cond post body c' p' b' Hc Hp Hb Hag.
  cbn [lloop].
  (* the condition *)
  assert (Hcond : forall cv, (match cond with Some c => go_expr r1 s1 c | None => Some (LitV (LitBool true)) end) = Some cv ->
                     evals (close (cs_of r1) c') s1 cv s1).
  { intros cv Hcv. destruct cond as [c|].
    - eapply tr_expr_correct; eauto.
    - injection Hc as <-. injection Hcv as <-. apply evals_close_val. }
  destruct (match cond with Some c => go_expr r1 s1 c | None => Some (LitV (LitBool true)) end) as [cv|] eqn:Ecv; [|exact I].
  specialize (Hcond cv eq_refl).
  destruct cv as [[| | |[]| | | |]| | |]; try exact I.
  2: { split; [apply cells_kept_refl|]. apply loop_exit. exact Hcond. }
  (* the body *)
  pose proof (Hgo _ _ _ _ _ _ _ _ Hb Hag ltac:(congruence) (kok_none _)) as Hbody.
  (* what happens after a completed body *)
  assert (Hnext : forall s', cells_kept s1 s' -> evals (close (cs_of r1) b') s1 (vbool true) s' ->
            match (match (match post with Some g => match go_simple r1 s' g with Some (_, s'') => Some s'' | None => None end | None => Some s' end) with
                   | Some s'' => lloop n r1 s'' cond post body
                   | None => LErr
                   end) with
            | LNormal _ s2 => cells_kept s1 s2 /\ evals (loop_expr (cs_of r1) c' b' p') s1 vunit s2
            | LRet _ _ | LBrk _ | LCont _ => False
            | LErr | LFuelOut => True
            end).
  { intros s' Hk Hbev.
    assert (Hag' : agree G1 r1 s') by (eapply agree_kept; eauto).
    assert (Hpost : forall s'', (match post with Some g => match go_simple r1 s' g with Some (_, s'') => Some s'' | None => None end | None => Some s' end) = Some s'' ->
                      cells_kept s' s'' /\ exists wp, evals (close (cs_of r1) p') s' wp s'').
    { intros s'' Hs''. destruct post as [g|].
      - destruct (tr_simple G1 g) as [[[[|?] ep] G2]|] eqn:Es; try discriminate. injection Hp as <-.
        destruct (go_simple r1 s' g) as [[r2 s2']|] eqn:Eg; [|discriminate]. injection Hs'' as <-.
        destruct (simple_correct Hag' Es Eg) as (v1 & Hv1 & _ & _ & Hk2). split; [exact Hk2|eauto].
      - injection Hp as <-. injection Hs'' as <-. split; [apply cells_kept_refl|]. exists vunit. rewrite close_skip. apply evals_skip. }
    destruct (match post with Some g => match go_simple r1 s' g with Some (_, s'') => Some s'' | None => None end | None => Some s' end) as [s''|] eqn:Epost; [|exact I].
    destruct (Hpost s'' eq_refl) as [Hk2 (wp & Hwp)].
    assert (Hag'' : agree G1 r1 s'') by (eapply agree_kept; eauto).
    pose proof (Hloop _ _ _ _ _ _ _ _ _ _ Hc Hp Hb Hag'') as Hrec.
    destruct (lloop n r1 s'' cond post body) as [r3 s3| | | | |]; auto.
    destruct Hrec as [Hk3 Hev]. split; [eapply cells_kept_trans; [exact Hk|eapply cells_kept_trans; eauto]|].
    eapply loop_continue; eauto. }
  destruct (lgo n r1 s1 body) as [r2 s2|v s2|s2|s2| |]; cbn [lpostk normal_k] in Hbody.
  - destruct Hbody as [Hk (w & Hw & _ & Hu)]. rewrite (Hu eq_refl) in Hw. apply Hnext; assumption.
  - destruct Hbody as [Hu _]. discriminate.
  - destruct Hbody as (_ & Hk & Hw). split; [exact Hk|]. eapply loop_break; eauto.
  - destruct Hbody as (_ & Hk & Hw). apply Hnext; assumption.
  - exact I.
  - exact I.
Qed.

(* a loop is a statement of local usage whose value is #() *)
Lemma loop_as_statement n tf G1 r1 s1 cond post body c' p' b' : Q_lloop n ->
  (match cond with Some c => tr_expr G1 c | None => Some (BoolE true) end) = Some c' ->
  (match post with Some g => match tr_simple G1 g with Some (BAnon, e, _) => Some e | _ => None end | None => Some SkipE end) = Some p' ->
  trl tf G1 ULoop body None = Some b' -> agree G1 r1 s1 ->
  lpostk ULocal None (ForE (Thunk c') (Thunk b') (Thunk p')) r1 s1 (lloop n r1 s1 cond post body).
Proof.
  intros IHloop Ec Ep Eb Hag. pose proof (IHloop _ _ _ _ _ _ _ _ _ _ Ec Ep Eb Hag) as Hl.
  destruct (lloop n r1 s1 cond post body) as [r3 s2| | | | |]; try (exact I || contradiction).
  destruct Hl as [Hk Hev]. cbn [lpostk normal_k]. split; [exact Hk|]. exists vunit.
  split; [|split; discriminate]. rewrite close_ForE, !close_thunk. apply evals_ForE. exact Hev.
Qed.

Lemma names_in_for_init i e1 cond post body : In i (names_stmt (LFor (Some (i, e1)) cond post body)).
Proof. cbn [names_stmt]. left; reflexivity. Qed.

(* One step of the induction, statement by statement: a list that begins with
   st, given the lists of smaller fuel. *)
Definition stmt_ok (n : nat) (st : lstmt) : Prop := forall tf G u rest k e r s,
  trl (S tf) G u (LCons st rest) k = Some e -> agree G r s -> (k <> None -> u = ULocal) -> kok (LCons st rest) k ->
  lpostk u k e r s (lgo (S n) r s (LCons st rest)).

Lemma Q_lgo_later n tf G u b k e r s s0 : Q_lgo n ->
  trl tf G u b k = Some e -> agree G r s -> cells_kept s s0 -> (k <> None -> u = ULocal) -> kok b k ->
  lpostk u k e r s0 (lgo n r s0 b).
Proof. intros IH Htr Hag Hk Hku Hkok. eapply (IH tf G); [exact Htr|eapply agree_kept; eauto|exact Hku|exact Hkok]. Qed.

Lemma Q_lgo_none n tf G u b e r s s0 : Q_lgo n ->
  trl tf G u b None = Some e -> agree G r s -> cells_kept s s0 -> lpostk u None e r s0 (lgo n r s0 b).
Proof. intros IH Htr Hag Hk. eapply Q_lgo_later; eauto using kok_none. congruence. Qed.

Lemma simple_ok n g : Q_lgo n -> stmt_ok n (LSimple g).
Proof.
  intros IH tf G u rest k e r s Htr Hag Hku Hkok.
  cbn [lgo]. destruct rest as [|st2 rest2]; cbn [trl] in Htr.
  - destruct (tr_simple G g) as [[[x e1] G']|] eqn:Es; [|discriminate].
    destruct (go_simple r s g) as [[r1 s1]|] eqn:Eg; [|exact I].
    destruct (simple_correct Hag Es Eg) as (v1 & Hv1 & Hag1 & Hcs & Hk).
    rewrite lgo_nil. destruct n; [exact I|].
    destruct (final_of u) as [fin|] eqn:Ef; injection Htr as <-.
    + rewrite (final_of_local_k Hku Ef) in *. cbn [then_k].
      eapply lpostk_letin; [exact Hv1|exact Hcs|exact Hk|discriminate|]. apply lpostk_final, Ef.
    + destruct u; try discriminate. apply lpostk_then_k with (w := v1); auto. intros _. split; discriminate.
  - destruct (tr_simple G g) as [[[x e1] G']|] eqn:Es; [|discriminate].
    destruct (trl tf G' u (LCons st2 rest2) k) as [r'|] eqn:Er; [|discriminate]. injection Htr as <-.
    destruct (go_simple r s g) as [[r1 s1]|] eqn:Eg; [|exact I].
    destruct (simple_correct Hag Es Eg) as (v1 & Hv1 & Hag1 & Hcs & Hk).
    eapply lpostk_letin; [exact Hv1|exact Hcs|exact Hk| |eapply IH; eauto using kok_cons_rest].
    (* the continuation does not mention the name the statement declares *)
    intros kr y Hkr Hx. eapply kok_cons_head; [exact Hkok|exact Hkr|]. eapply simple_binder_name; eauto.
Qed.

Lemma if_ok n c th el : Q_lgo n -> stmt_ok n (LIf c th el).
Proof.
  intros IH tf G u rest k e r s Htr Hag Hku Hkok.
  cbn [trl] in Htr. destruct (tr_expr G c) as [c'|] eqn:Ec; [|discriminate].
  rewrite lgo_if. destruct (go_expr r s c) as [[[| | |cb| | | |]| | |]|] eqn:Gc; try exact I.
  pose proof (tr_expr_correct _ _ _ Hag _ _ _ Ec Gc) as Hc.
  destruct (llast rest) eqn:Elast.
  - (* nothing follows: the usage goes into both branches *)
    destruct rest; [|discriminate].
    destruct (trl tf G u th None) as [t'|] eqn:Et; [|discriminate].
    destruct (trl tf G u (lblock_of el) None) as [e'|] eqn:Ee; [|discriminate]. injection Htr as <-.
    apply lpostk_last, lpostk_delimit; [exact Hku|].
    apply (lpostk_if u None c' cb); [exact Hc|]. destruct cb; eapply Q_lgo_none; eauto using cells_kept_refl.
  - destruct (lends (lsize th) th) eqn:Eends.
    + (* early return: the remainder is the else branch *)
      destruct (llast (lblock_of el)) eqn:Eel; [|discriminate].
      destruct (trl tf G u th None) as [t'|] eqn:Et; [|discriminate].
      destruct (trl tf G u rest None) as [r'|] eqn:Er; [|discriminate]. injection Htr as <-.
      apply lpostk_delimit; [exact Hku|]. apply (lpostk_if u None c' cb); [exact Hc|]. destruct cb.
      * (* th does not fall off its end: its outcome is that of the list *)
        pose proof (Q_lgo_none n _ _ _ _ _ _ _ s IH Et Hag (cells_kept_refl s)) as Hb.
        destruct (lgo n r s th) as [r2 s2|v s2|s2|s2| |] eqn:Eo; try exact Hb.
        exfalso. eapply lends_not_normal; eauto.
      * destruct (lblock_of el); [|discriminate]. rewrite lgo_nil. destruct n; [exact I|].
        eapply Q_lgo_none; eauto using cells_kept_refl.
    + (* a conditional in the middle of the list *)
      destruct (trl tf G ULocal th None) as [t'|] eqn:Et; [|discriminate].
      destruct (trl tf G ULocal (lblock_of el) None) as [e'|] eqn:Ee; [|discriminate].
      destruct (trl tf G u rest k) as [r'|] eqn:Er; [|discriminate]. injection Htr as <-.
      apply lpostk_then; [|intros s2 Hk2; eapply Q_lgo_later; eauto using kok_cons_rest].
      apply (lpostk_if ULocal None c' cb); [exact Hc|]. destruct cb; eapply Q_lgo_none; eauto using cells_kept_refl.
Qed.

Lemma return_ok n e0 : stmt_ok n (LReturn e0).
Proof.
  intros tf G u rest k e r s Htr Hag Hku Hkok.
  destruct rest; cbn [trl] in Htr; [|discriminate]. destruct u; try discriminate.
  destruct (tr_expr G e0) as [e'|] eqn:Ee; [|discriminate]. injection Htr as <-.
  apply lpostk_delimit; [exact Hku|].
  cbn [lgo]. destruct (go_expr r s e0) as [v|] eqn:Ge; [|exact I].
  cbn [lpostk]. split; [reflexivity|]. eapply tr_expr_correct; eauto.
Qed.

Lemma jump_ok n st : st = LBreak \/ st = LContinue -> stmt_ok n st.
Proof.
  intros [-> | ->] tf G u rest k e r s Htr Hag Hku Hkok.
  all: destruct rest; cbn [trl] in Htr; [|discriminate]; destruct u; try discriminate; injection Htr as <-.
  all: apply lpostk_delimit; [exact Hku|]; cbn [lgo lpostk].
  all: split; [reflexivity|]; split; [apply cells_kept_refl|]; apply evals_close_val.
Qed.

Lemma block_ok n inner : Q_lgo n -> stmt_ok n (LBlock inner).
Proof.
  intros IH tf G u rest k e r s Htr Hag Hku Hkok.
  assert (Hkok_in : kok inner k).
  { intros kr Hkr y Hy. eapply kok_cons_head; [exact Hkok|exact Hkr|exact Hy]. }
  rewrite lgo_block. destruct rest as [|st2 rest2]; cbn [trl] in Htr.
  - (* the last statement: the block is printed in place *)
    apply lpostk_last. eapply IH; eauto.
  - destruct (trl tf G u (LCons st2 rest2) k) as [r'|] eqn:Er; [|discriminate].
    assert (Hrest : forall s2, cells_kept s s2 -> lpostk u k r' r s2 (lgo n r s2 (LCons st2 rest2)))
      by (intros s2 Hk2; eapply Q_lgo_later; eauto using kok_cons_rest).
    destruct (shadows G (LBlock inner)) eqn:Esh.
    + (* printed in parentheses *)
      destruct (trl tf G ULocal inner None) as [i'|] eqn:Ei; [|discriminate]. injection Htr as <-.
      apply lpostk_then; [|exact Hrest]. eapply Q_lgo_none; eauto using cells_kept_refl.
    + (* its bindings extend over the remainder, which does not mention them *)
      apply lpostk_splice with (a := r'); [|exact Hrest].
      eapply IH; [exact Htr|exact Hag|reflexivity|].
      intros kr [= <-] y Hy. eapply trl_nofree; [exact Er| |].
      * eapply shadows_false_lookup; [exact Esh|]. cbn [names_stmt]. exact Hy.
      * apply knofree_iff. intros kr Hkr. eapply kok_cons_head; [exact Hkok|exact Hkr|exact Hy].
Qed.

(* What trl puts after a loop inside its list (aft: the final value of the
   usage, the continuation, or the translated remainder), after a finished
   first part X (the loop, with or without its variable) that ran under rr. *)
Lemma lpostk_after n tf G u rest k aft r s : Q_lgo n -> agree G r s -> (k <> None -> u = ULocal) -> kok rest k ->
  (if llast rest then match final_of u with Some fin => Some (Some (then_k fin k)) | None => Some k end
   else match trl tf G u rest k with Some r' => Some (Some r') | None => None end) = Some aft ->
  forall X rr ss o1,
    (forall a s0 o, aft = Some a -> lpostk u k a r s0 o -> lpostk u k a rr s0 o) ->
    cells_kept s ss -> lpostk ULocal None X rr ss o1 ->
    lpostk u k (then_k X aft) rr ss (seq_out o1 (fun s2 => lgo n r s2 rest)).
Proof.
  intros IH Hag Hku Hkok Eaft X rr ss o1 Htrans Hkss HX. destruct (llast rest) eqn:El.
  - destruct rest; [|discriminate]. destruct (final_of u) as [fin|] eqn:Ef; injection Eaft as <-.
    + rewrite (final_of_local_k Hku Ef) in *. cbn [then_k].
      apply lpostk_then; [exact HX|]. intros s2 _. rewrite lgo_nil. destruct n; [exact I|]. apply lpostk_final, Ef.
    + destruct u; try discriminate. apply lpostk_last, lpostk_delimit; [exact Hku|exact HX].
  - destruct (trl tf G u rest k) as [r'|] eqn:Er; [|discriminate]. injection Eaft as <-. cbn [then_k].
    apply lpostk_then; [exact HX|]. intros s2 Hk2. apply (Htrans r' _ _ eq_refl).
    eapply Q_lgo_later; eauto using cells_kept_trans.
Qed.

Lemma for_ok n init cond post body : Q_lgo n -> Q_lloop n -> stmt_ok n (LFor init cond post body).
Proof.
  intros IH IHloop tf G u rest k e r s Htr Hag Hku Hkok. cbn [trl] in Htr.
  set (G1 := match init with Some (i, e1) => (i, (true, type_of G e1)) :: G | None => G end) in *.
  destruct (match cond with Some c => tr_expr G1 c | None => Some (BoolE true) end) as [c'|] eqn:Ec; [|discriminate].
  destruct (match post with Some g => match tr_simple G1 g with Some (BAnon, e1, _) => Some e1 | _ => None end | None => Some SkipE end) as [p'|] eqn:Ep; [|discriminate].
  destruct (trl tf G1 ULoop body None) as [b'|] eqn:Eb; [|discriminate].
  set (loop := ForE (Thunk c') (Thunk b') (Thunk p')) in *.
  destruct (if llast rest then match final_of u with Some fin => Some (Some (then_k fin k)) | None => Some k end
            else match trl tf G u rest k with Some r' => Some (Some r') | None => None end) as [aft|] eqn:Eaft; [|discriminate].
  pose proof (lpostk_after n tf G u rest k aft r s IH Hag Hku (kok_cons_rest _ _ _ Hkok) Eaft) as Hcomb.
  rewrite lgo_for.
  destruct init as [[i e1]|].
  - destruct (tr_expr G e1) as [e1'|] eqn:Ee1; [|discriminate].
    destruct (go_expr r s e1) as [v|] eqn:Ge1; [|exact I].
    destruct (alloc_cell v s) as [bb s1] eqn:Ea.
    destruct (agree_alloc i (type_of G e1) Hag (cells_kept_refl s) Ea) as [Hag1 Hk1].
    pose proof (evals_ref_to _ (type_of G e1) _ _ _ _ _ _ (tr_expr_correct _ _ _ Hag _ _ _ Ee1 Ge1) Ea) as Hcell.
    pose proof (loop_as_statement n tf G1 _ s1 cond post body c' p' b' IHloop Ec Ep Eb Hag1) as Hl.
    assert (Hik : forall kr, k = Some kr -> nofree i kr).
    { intros kr Hkr. eapply kok_cons_head; [exact Hkok|exact Hkr|apply names_in_for_init]. }
    destruct (negb (llast rest) && shadows G (LFor (Some (i, e1)) cond post body)) eqn:Eparen; injection Htr as <-.
    + (* the loop and its variable are printed in parentheses *)
      apply (Hcomb (LetIn (BNamed i) (RefTo (ty_of (type_of G e1)) e1') loop) r s); auto using cells_kept_refl.
      eapply lpostk_letin with (r1 := (i, Cell bb) :: r); [exact Hcell|reflexivity|exact Hk1|discriminate|exact Hl].
    + (* the variable's binding extends over what follows, which does not mention it *)
      eapply lpostk_letin with (r1 := (i, Cell bb) :: r); [exact Hcell|reflexivity|exact Hk1| |].
      * intros kr y Hkr [= <-]. apply Hik, Hkr.
      * apply (Hcomb loop ((i, Cell bb) :: r) s1); [|exact Hk1|exact Hl].
        intros a s0 o Ha. subst aft. apply lpostk_drop_binding; [|exact Hik].
        assert (Hkn : knofree i k) by apply knofree_iff, Hik.
        apply (after_nofree i tf G u rest k (Some a)); [|exact Hkn|exact Eaft].
        intros r' El Er. rewrite El in Eparen. cbn [negb andb] in Eparen.
        eapply trl_nofree; [exact Er| |exact Hkn].
        eapply shadows_false_lookup; [exact Eparen|]. apply names_in_for_init.
  - injection Htr as <-.
    pose proof (loop_as_statement n tf G1 r s cond post body c' p' b' IHloop Ec Ep Eb Hag) as Hl.
    eapply lpostk_seq; [rewrite close_skip; apply evals_skip|apply cells_kept_refl|].
    apply (Hcomb loop r s); auto using cells_kept_refl.
Qed.

Lemma block_step n : Q_lgo n -> Q_lloop n -> Q_lgo (S n).
Proof.
  intros IH IHloop tf G u b k e r s Htr Hag Hku Hkok.
  destruct tf as [|tf]; [discriminate|].
  destruct b as [|st rest].
  - (* empty list *)
    cbn [trl] in Htr. injection Htr as <-. apply lpostk_nil.
  - revert tf G u rest k e r s Htr Hag Hku Hkok. change (stmt_ok n st).
    destruct st; [exact (simple_ok n _ IH)|exact (if_ok n _ _ _ IH)|apply return_ok|exact (for_ok n _ _ _ _ IH IHloop)
                 |apply jump_ok; auto|apply jump_ok; auto|exact (block_ok n _ IH)].
Qed.

(* loops, nested blocks, conditionals, early returns: every accepted statement
   list, under every usage, with every continuation spliced after it *)
Theorem trlk_correct : forall n, Q_lgo n /\ Q_lloop n.
Proof.
  induction n as [|n [IH1 IH2]].
  - split; [intros tf G u b k e r s _ _ _ _; exact I|intros tf G1 r1 s1 cond post body c' p' b' _ _ _ _; exact I].
  - split; [apply block_step; assumption|apply loop_step; assumption].
Qed.

(* the instance without continuation, which P_lgo and P_lloop state for lists
   without nested blocks *)
Corollary trl_correct : forall n, P_lgo n /\ P_lloop n.
Proof.
  intros n. destruct (trlk_correct n) as [HQ HL]. split.
  - intros tf G u b e r s Htr _ Hag. apply lpostk_none. apply (HQ tf G u b None e r s Htr Hag); [congruence|apply kok_none].
  - intros tf G1 r1 s1 cond post body c' p' b' Hc Hp Hb _. exact (HL tf G1 r1 s1 cond post body c' p' b' Hc Hp Hb).
Qed.

Theorem lbodyk_correct n tf fn e args v s' :
  trl tf (params_env (lf_params fn)) UReturned (lf_body fn) None = Some e ->
  length args = length (lf_params fn) ->
  lgo_call n fn args = LRet v s' ->
  evals (close (cs_of (rev (combine (map fst (lf_params fn)) (map Imm args)))) e) state0 v s'.
Proof.
  intros Htr Hlen Hgo. unfold lgo_call in Hgo.
  pose proof (proj1 (trlk_correct n) tf _ UReturned _ None e _ state0 Htr (agree_params _ _ state0 Hlen) ltac:(congruence) (kok_none _)) as Hp.
  rewrite Hgo in Hp. cbn [lpostk] in Hp. apply Hp.
Qed.
