(* MiniGoL: the emitted *definition* (curried header, recursion binder) applied
   to the arguments evaluates to Go's result — the function-level form of
   Tr/MiniGoLBlocks.lbodyk_correct.  The fragment has no calls, so the
   function's own name does not occur in the emitted body (trl_nofree) and the
   recursion binder substitutes nothing. *)
From Coq Require Import List.
From GV Require Import Lang.GlSyntax Lang.GlSem Tr.MiniGo Tr.MiniGoProofs Tr.MiniGoL Tr.MiniGoLProofs Tr.MiniGoLBlocks.
Import ListNotations.
Local Open Scope nat_scope.

Lemma tlookup_params_none x ps : ~ In x (map fst ps) -> tlookup x (params_env ps) = None.
Proof.
  unfold params_env. rewrite <- map_rev. intros Hn.
  assert (Hr : ~ In x (map fst (rev ps))) by (rewrite map_rev, <- in_rev; exact Hn).
  induction (rev ps) as [|[y t] l IH]; [reflexivity|].
  cbn [map fst tlookup]. cbn [map fst In] in Hr.
  destruct (String.eqb x y) eqn:E; [apply String.eqb_eq in E; subst; tauto|]. apply IH. tauto.
Qed.

(* with any number of parameters: what the caller writes is f #() for none *)
Lemma lfunc_call n fn f args v s' :
  trl_func fn = Some f -> NoDup (lf_name fn :: map fst (lf_params fn)) ->
  length args = length (lf_params fn) -> lgo_call n fn args = LRet v s' ->
  evals (match args with [] => App (Val f) UnitE | _ => fold_left App (map Val args) (Val f) end) state0 v s'.
Proof.
  intros Htr Hnd Hlen Hgo. unfold trl_func in Htr.
  destruct (trl (lsize (lf_body fn)) (params_env (lf_params fn)) UReturned (lf_body fn) None) as [body|] eqn:Eb; [|discriminate].
  pose proof (lbodyk_correct n _ fn body args v s' Eb Hlen Hgo) as Hev. rewrite cs_of_rev_combine in Hev.
  assert (Hlen' : length args = length (map fst (lf_params fn))) by (rewrite map_length; exact Hlen).
  assert (Hname : ~ In (lf_name fn) (map fst (lf_params fn))) by (inversion Hnd; assumption).
  apply (call_header _ _ body f args state0 v s' Htr Hnd Hlen').
  rewrite close_snoc_nofree; [exact Hev| |].
  - exact (trl_nofree (lf_name fn) _ _ _ _ _ _ Eb (tlookup_params_none _ _ Hname) I).
  - rewrite map_rev, map_fst_combine, <- in_rev by (symmetry; exact Hlen'). exact Hname.
Qed.

Theorem lfunc_correct n fn f args v s' :
  trl_func fn = Some f ->
  NoDup (lf_name fn :: map fst (lf_params fn)) -> lf_params fn <> [] ->
  length args = length (lf_params fn) ->
  lgo_call n fn args = LRet v s' ->
  evals (fold_left App (map Val args) (Val f)) state0 v s'.
Proof.
  intros Htr Hnd Hne Hlen Hgo. pose proof (lfunc_call n fn f args v s' Htr Hnd Hlen Hgo) as H.
  destruct args; [destruct (lf_params fn); [congruence|discriminate]|exact H].
Qed.

Theorem lfunc_correct_nullary n fn f v s' :
  trl_func fn = Some f -> lf_params fn = [] ->
  lgo_call n fn [] = LRet v s' ->
  evals (App (Val f) (Val vunit)) state0 v s'.
Proof.
  intros Htr Hps Hgo. apply (lfunc_call n fn f [] v s' Htr); [|rewrite Hps; reflexivity|exact Hgo].
  rewrite Hps. repeat constructor. intros [].
Qed.

(* ---------------------------------------------------------------- guards of the loop fragment *)
Lemma rejects_break_outside_loop f G u k : u <> ULoop -> trl f G u (LCons LBreak LNil) k = None.
Proof. destruct f; [reflexivity|]. destruct u; cbn [trl]; congruence. Qed.

Lemma rejects_continue_outside_loop f G u k : u <> ULoop -> trl f G u (LCons LContinue LNil) k = None.
Proof. destruct f; [reflexivity|]. destruct u; cbn [trl]; congruence. Qed.

Lemma rejects_code_after_break f G u st rest k : trl f G u (LCons LBreak (LCons st rest)) k = None.
Proof. destruct f; reflexivity. Qed.

Lemma rejects_code_after_continue f G u st rest k : trl f G u (LCons LContinue (LCons st rest)) k = None.
Proof. destruct f; reflexivity. Qed.

Lemma rejects_return_in_loop_body f G e k : trl f G ULoop (LCons (LReturn e) LNil) k = None.
Proof. destruct f; reflexivity. Qed.

Lemma rejects_return_before_end_l f G u e st rest k : trl f G u (LCons (LReturn e) (LCons st rest)) k = None.
Proof. destruct f; reflexivity. Qed.

(* a loop whose post statement declares a variable *)
Lemma rejects_declaring_post f G u init cond x e body rest k :
  trl f G u (LCons (LFor init cond (Some (SDefine x e)) body) rest) k = None.
Proof.
  destruct f; [reflexivity|]. cbn [trl].
  set (G1 := match init with Some (i, e0) => (i, (true, type_of G e0)) :: G | None => G end).
  destruct (match cond with Some c => tr_expr G1 c | None => Some (BoolE true) end); [|reflexivity].
  cbn [tr_simple]. destruct (tr_expr G1 e); reflexivity.
Qed.
